(* C19 on KeysModel: multisignature verification is positional, and the keybase gives nothing and changes nothing
   under a wrong passphrase. All over the ideal primitives of the model: a signature records the key and the message,
   an armored key opens under the passphrase it was sealed with and no other. *)
From Coq Require Import List NArith Bool.
From PM Require Import Base.Bytes Store.KV Store.KVProofs Crypto.KeysModel.
Import ListNotations.
Local Open Scope N_scope.

(* C19: a multisignature verifies iff there are exactly as many signatures as keys and each
   verifies under the key in ITS position (recursively for nested keys) *)
Theorem verify_multi_iff ks m sigs :
  verify (PMulti ks) m (SMulti sigs) = true <-> Forall2 (fun k s => verify k m s = true) ks sigs.
Proof.
  simpl. revert sigs. induction ks as [|k kr IH]; intros [|s sr]; try (split; [discriminate|intros H; inversion H]).
  - split; constructor.
  - rewrite andb_true_iff, IH. split; [intros [A B]; constructor; assumption|intros H; inversion H; auto].
Qed.
Theorem verify_multi_length ks m sigs : verify (PMulti ks) m (SMulti sigs) = true -> length sigs = length ks.
Proof. intros H. apply verify_multi_iff in H. induction H; simpl; auto. Qed.
Theorem verify_plain_iff id m b o : verify (PK id) m (SPlain b o) = true <-> b = id /\ o = m.
Proof. simpl. rewrite andb_true_iff, !N.eqb_eq. tauto. Qed.
Theorem verify_wrong_shape : forall id m sigs ks b o,
  verify (PK id) m (SMulti sigs) = false /\ verify (PMulti ks) m (SPlain b o) = false /\ verify (PK id) m SGarbage = false.
Proof. intros. repeat split; reflexivity. Qed.

Lemma unarmor_right a : unarmor a (snd a) = Some (fst a).
Proof. unfold unarmor. rewrite beqb_refl. reflexivity. Qed.
Lemma unarmor_wrong a p : p <> snd a -> unarmor a p = None.
Proof. intros H. unfold unarmor. rewrite beqb_neq by congruence. reflexivity. Qed.

(* a wrong passphrase never yields a key and never deletes or alters one *)
Theorem wrong_pass_changes_nothing (s : kb) ad (a : armor) p : aget s ad = Some a -> p <> snd a ->
  (forall np, kstep s (KUpdate ad p np) = (s, KErr)) /\ kstep s (KDelete ad p) = (s, KErr) /\
  (forall m, kstep s (KSign ad p m) = (s, KErr)) /\ (forall ep, kstep s (KExport ad p ep) = (s, KErr)).
Proof.
  intros E W. pose proof (unarmor_wrong a p W) as U. repeat split; intros; simpl; rewrite E, U; reflexivity.
Qed.
Theorem import_wrong_pass_changes_nothing (s : kb) (a : armor) dp np : dp <> snd a -> kstep s (KImport a dp np) = (s, KErr).
Proof. intros W. simpl. rewrite (unarmor_wrong a dp W). reflexivity. Qed.
(* export then import into a keybase that does not hold the key: the same key and address, sealed under the new passphrase *)
Theorem export_import_roundtrip (s1 s2 : kb) ad dp ep np (a : armor) :
  kstep s1 (KExport ad dp ep) = (s1, KArmor a) -> aget s2 (addr_of (fst a)) = None ->
  kstep s2 (KImport a ep np) = (aset s2 (addr_of (fst a)) (fst a, np), KOk) /\
  (exists a0, aget s1 ad = Some a0 /\ fst a0 = fst a).
Proof.
  simpl. destruct (aget s1 ad) as [a0|] eqn:E; [|discriminate].
  destruct (unarmor a0 dp) as [id|] eqn:U; [|discriminate]. intros [= <-] Hn. simpl in *.
  unfold unarmor at 1. simpl. rewrite beqb_refl. simpl. rewrite Hn. split; auto.
  exists a0. split; auto. unfold unarmor in U. destruct (beqb (snd a0) dp); [|discriminate]. injection U as <-. reflexivity.
Qed.
Theorem create_then_sign (s : kb) id p m : asorted s ->
  let s1 := fst (kstep s (KCreate id p)) in kstep s1 (KSign (addr_of id) p m) = (s1, KSig (SPlain id m)).
Proof.
  intros S. simpl. rewrite aget_aset. rewrite beqb_refl. unfold unarmor. simpl. rewrite beqb_refl. reflexivity.
Qed.
