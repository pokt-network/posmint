(* Proofs about IntModel: the bit-length checks are exactly range checks, every operation is
   the exact Z operation when the result is representable and a panic exactly otherwise.
   The range predicates stay folded, and a bare 2^255 or 2^256 is generalised, wherever [lia]
   runs: its certificates are checked over whatever numerals it is shown. *)
From Coq Require Import ZArith Bool Lia.
From PM Require Import Num.IntModel.
Local Open Scope Z_scope.

Definition in_int (z : Z) : Prop := - 2 ^ 255 < z < 2 ^ 255.
Definition in_uint (z : Z) : Prop := 0 <= z < 2 ^ 256.

Lemma bitlen_nz z : z <> 0 -> bitlen z = Z.log2 (Z.abs z) + 1.
Proof. intros Hz. unfold bitlen. destruct (Z.eqb_spec z 0); [contradiction|reflexivity]. Qed.

Lemma bitlen_le z n : 0 <= n -> (bitlen z <= n <-> Z.abs z < 2 ^ n).
Proof.
  intros Hn. destruct (Z.eq_dec z 0) as [->|Hz].
  - split; intros _; [apply Z.pow_pos_nonneg; lia|exact Hn].
  - rewrite bitlen_nz, Z.log2_lt_pow2 by lia. lia.
Qed.

Lemma bitlen_lower z : z <> 0 -> 2 ^ (bitlen z - 1) <= Z.abs z.
Proof. intros Hz. rewrite bitlen_nz, Z.add_simpl_r by auto. apply Z.log2_spec. lia. Qed.

Lemma bitlen_opp z : bitlen (- z) = bitlen z.
Proof. destruct z; reflexivity. Qed.

Lemma bitlen_mul a b : a <> 0 -> b <> 0 -> bitlen a + bitlen b - 1 <= bitlen (a * b).
Proof.
  intros Ha Hb. rewrite !bitlen_nz, Z.abs_mul by (auto; apply Z.neq_mul_0; auto).
  pose proof (Z.log2_mul_below (Z.abs a) (Z.abs b)). lia.
Qed.

(* every check of the model has this shape: the value when the test passes, a panic when not *)
Lemma checked_spec (ok : bool) (R : Prop) (z : Z) : (ok = true <-> R) ->
  (R /\ (if ok then Some z else None) = Some z) \/ (~ R /\ (if ok then Some z else None) = None).
Proof.
  intros H. destruct ok; [left|right]; split; auto.
  - apply H; reflexivity.
  - intros r. apply H in r. discriminate.
Qed.

Lemma int_ok_range z : int_ok z = true <-> in_int z.
Proof. unfold int_ok, in_int. rewrite Z.leb_le, bitlen_le by discriminate. apply Z.abs_lt. Qed.

Lemma uint_ok_spec z : uint_ok z = true <-> in_uint z.
Proof.
  unfold uint_ok, in_uint. rewrite andb_true_iff, !Z.leb_le, bitlen_le by discriminate.
  generalize (2 ^ 256). lia.
Qed.

Lemma int_chk_spec z : (in_int z /\ int_chk z = Some z) \/ (~ in_int z /\ int_chk z = None).
Proof. exact (checked_spec _ _ z (int_ok_range z)). Qed.

Lemma uint_chk_spec z : (in_uint z /\ uint_chk z = Some z) \/ (~ in_uint z /\ uint_chk z = None).
Proof. exact (checked_spec _ _ z (uint_ok_spec z)). Qed.

(* both ranges are closed under getting nearer to zero, which is all Quo, Mod and Neg do *)
Lemma in_int_le a b : Z.abs a <= Z.abs b -> in_int b -> in_int a.
Proof. intros H Hb%Z.abs_lt. apply Z.abs_lt. exact (Z.le_lt_trans _ _ _ H Hb). Qed.

Lemma in_uint_le a b : 0 <= a <= b -> in_uint b -> in_uint a.
Proof. intros [H0 H1] [_ H2]. split; [exact H0|exact (Z.le_lt_trans _ _ _ H1 H2)]. Qed.

Theorem int_add_exact a b :
  (in_int (a + b) /\ int_add a b = Some (a + b)) \/ (~ in_int (a + b) /\ int_add a b = None).
Proof. apply int_chk_spec. Qed.
Theorem int_sub_exact a b :
  (in_int (a - b) /\ int_sub a b = Some (a - b)) \/ (~ in_int (a - b) /\ int_sub a b = None).
Proof. apply int_chk_spec. Qed.

(* Mul: the pre-check is implied by the post-check, so Mul is exact as well. The operands have to
   be Ints themselves (always true for values built through the API): 0 * 2^300 is refused. *)
Lemma mul_precheck_redundant a b :
  in_int a -> in_int b -> bitlen a + bitlen b - 1 > max_bit_len -> ~ in_int (a * b).
Proof.
  intros Ha%int_ok_range%Z.leb_le Hb%int_ok_range%Z.leb_le H Hab%int_ok_range%Z.leb_le.
  destruct (Z.eq_dec a 0) as [->|Na]; [change (bitlen 0) with 0 in H; lia|].
  destruct (Z.eq_dec b 0) as [->|Nb]; [change (bitlen 0) with 0 in H; lia|].
  pose proof (bitlen_mul a b Na Nb). lia.
Qed.

Theorem int_mul_exact a b : in_int a -> in_int b ->
  (in_int (a * b) /\ int_mul a b = Some (a * b)) \/ (~ in_int (a * b) /\ int_mul a b = None).
Proof.
  intros Ha Hb. unfold int_mul.
  destruct (Z.gtb_spec (bitlen a + bitlen b - 1) max_bit_len) as [H|H].
  - right; split; auto. apply mul_precheck_redundant; auto. lia.
  - apply int_chk_spec.
Qed.

(* Quo / Mod / Neg / Min / Max stay in range, so the absence of a check is sound *)
Lemma quot_abs_le a b : b <> 0 -> Z.abs (Z.quot a b) <= Z.abs a.
Proof. intros Hb. rewrite <- Z.quot_abs by auto. apply Z.quot_le_upper_bound; nia. Qed.

Theorem int_quo_exact a b : in_int a ->
  (b = 0 /\ int_quo a b = None) \/ (b <> 0 /\ int_quo a b = Some (Z.quot a b) /\ in_int (Z.quot a b)).
Proof.
  intros Ha. unfold int_quo. destruct (Z.eqb_spec b 0); [left; auto|right; split; [|split]; auto].
  apply (in_int_le _ a); auto using quot_abs_le.
Qed.

Theorem int_mod_exact a b : in_int b ->
  (b = 0 /\ int_mod a b = None) \/
  (b <> 0 /\ exists r, int_mod a b = Some r /\ 0 <= r < Z.abs b /\ (exists q, a = q * b + r) /\ in_int r).
Proof.
  intros Hb. unfold int_mod, euclid_mod. destruct (Z.eqb_spec b 0); [left; auto|right; split; auto].
  pose proof (Z.mod_pos_bound a (Z.abs b) ltac:(lia)) as Hr.
  exists (a mod Z.abs b). split; [reflexivity|]. split; [exact Hr|]. split.
  - exists (a / Z.abs b * Z.sgn b). pose proof (Z.div_mod a (Z.abs b) ltac:(lia)).
    rewrite <- Z.mul_assoc, (Z.mul_comm (Z.sgn b) b), Z.sgn_abs. lia.
  - apply (in_int_le _ b); auto. lia.
Qed.

Theorem int_neg_in a : in_int a -> in_int (int_neg a).
Proof. apply in_int_le. unfold int_neg. rewrite Z.abs_opp. reflexivity. Qed.
Theorem int_min_spec a b : int_min a b = Z.min a b.
Proof. unfold int_min. destruct (Z.gtb_spec a b); lia. Qed.
Theorem int_max_spec a b : int_max a b = Z.max a b.
Proof. unfold int_max. destruct (Z.ltb_spec a b); lia. Qed.

Theorem int_int64_exact a :
  (- 2 ^ 63 <= a < 2 ^ 63 /\ int_int64 a = Some a) \/ (~ (- 2 ^ 63 <= a < 2 ^ 63) /\ int_int64 a = None).
Proof.
  apply checked_spec. unfold is_int64. rewrite andb_true_iff, Z.leb_le, Z.ltb_lt. reflexivity.
Qed.

Theorem uint_add_exact a b :
  (in_uint (a + b) /\ uint_add a b = Some (a + b)) \/ (~ in_uint (a + b) /\ uint_add a b = None).
Proof. apply uint_chk_spec. Qed.
Theorem uint_sub_exact a b :
  (in_uint (a - b) /\ uint_sub a b = Some (a - b)) \/ (~ in_uint (a - b) /\ uint_sub a b = None).
Proof. apply uint_chk_spec. Qed.
Theorem uint_mul_exact a b :
  (in_uint (a * b) /\ uint_mul a b = Some (a * b)) \/ (~ in_uint (a * b) /\ uint_mul a b = None).
Proof. apply uint_chk_spec. Qed.
Theorem uint_quo_exact a b : in_uint a -> in_uint b ->
  (b = 0 /\ uint_quo a b = None) \/ (b <> 0 /\ uint_quo a b = Some (a / b) /\ in_uint (a / b)).
Proof.
  intros Ha Hb. unfold uint_quo. destruct (Z.eqb_spec b 0); [left; auto|right; split; auto].
  pose proof (proj1 Ha : 0 <= a). pose proof (proj1 Hb : 0 <= b).
  rewrite Z.quot_div_nonneg by lia.
  assert (Hq : in_uint (a / b)).
  { apply (in_uint_le _ a); auto. split; [apply Z.div_pos; lia|apply Z.div_le_upper_bound; nia]. }
  split; auto. destruct (uint_chk_spec (a / b)) as [[_ E]|[N _]]; [exact E|contradiction].
Qed.

(* the Uint text decoder accepts exactly the Uint range (after the repair of F10) *)
Theorem uint_unmarshal_exact z :
  (in_uint z /\ uint_unmarshal z = Some z) \/ (~ in_uint z /\ uint_unmarshal z = None).
Proof. apply uint_chk_spec. Qed.
Theorem int_unmarshal_exact z :
  (in_int z /\ int_unmarshal z = Some z) \/ (~ in_int z /\ int_unmarshal z = None).
Proof. apply int_chk_spec. Qed.

Lemma div_range t k m : 0 <= t -> 0 < k -> 0 < m -> (- m <= t / k < m <-> t < m * k).
Proof.
  intros Ht Hk Hm. pose proof (Z.div_pos t k Ht Hk).
  pose proof (Z.div_mod t k ltac:(lia)). pose proof (Z.mod_pos_bound t k Hk). nia.
Qed.

Theorem tokens_to_power_exact t : 0 <= t ->
  (t < 2 ^ 63 * 10 ^ 6 /\ tokens_to_power t = Some (t / 10 ^ 6)) \/
  (2 ^ 63 * 10 ^ 6 <= t /\ tokens_to_power t = None).
Proof.
  intros H0. unfold tokens_to_power, power_reduction, int_quo. simpl (10 ^ 6 =? 0).
  rewrite Z.quot_div_nonneg by lia.
  destruct (int_int64_exact (t / 10 ^ 6)) as [[R ->]|[R ->]];
    rewrite (div_range t (10 ^ 6) (2 ^ 63) H0 eq_refl eq_refl) in R; [left|right]; split; auto.
  apply Z.nlt_ge, R.
Qed.
