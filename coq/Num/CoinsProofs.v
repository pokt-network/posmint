(* Proofs about CoinsModel: Add keeps the canonical form and is the per-denomination sum,
   Sub its inverse, SafeSub's flag is exact, AmountOf's binary search is a lookup,
   IsAllGTE is the per-denomination comparison. *)
From Coq Require Import List ZArith Bool Lia.
From PM Require Import Base.Bytes Num.IntModel Num.IntProofs Num.CoinsModel.
Import ListNotations.
Local Open Scope Z_scope.

Fixpoint ssorted (cs : coins) : Prop :=
  match cs with
  | [] => True
  | c :: r => (forall c', In c' r -> bltb (fst c) (fst c') = true) /\ ssorted r
  end.
Definition nonzero (cs : coins) : Prop := Forall (fun c => snd c <> 0) cs.
Definition canon (cs : coins) : Prop := ssorted cs /\ nonzero cs.
Definition all_int (cs : coins) : Prop := Forall (fun c => in_int (snd c)) cs.
Definition all_pos (cs : coins) : Prop := Forall (fun c => 0 < snd c) cs.

Definition lower_bounded (d : bytes) (cs : coins) : Prop := forall c, In c cs -> bltb d (fst c) = true.

Lemma bcompare_cases a b :
  match bcompare a b with Eq => a = b | Lt => bltb a b = true | Gt => bltb b a = true end.
Proof.
  unfold bltb. rewrite (bcompare_antisym a b). destruct (bcompare a b) eqn:C; auto. apply bcompare_eq, C.
Qed.

Lemma lower_bounded_trans lo d r : bltb lo d = true -> lower_bounded d r -> lower_bounded lo r.
Proof. intros L B c Hc. exact (bltb_trans _ _ _ L (B c Hc)). Qed.
Lemma lower_bounded_cons lo d x r : bltb lo d = true -> lower_bounded d r -> lower_bounded lo ((d, x) :: r).
Proof. intros L B c [<-|Hc]; [exact L|exact (lower_bounded_trans lo d r L B c Hc)]. Qed.

Lemma lookup_above d cs : lower_bounded d cs -> lookup cs d = 0.
Proof.
  induction cs as [|[d0 a0] r IH]; simpl; auto. intros H.
  rewrite (bltb_neq' d d0) by exact (H (d0, a0) (or_introl eq_refl)).
  apply IH. intros c Hc. exact (H c (or_intror Hc)).
Qed.
Lemma lookup_below d d' cs : (forall c, In c cs -> bltb d (fst c) = true) ->
  bltb d' d = true -> lookup cs d' = 0.
Proof. intros H L. exact (lookup_above d' cs (lower_bounded_trans d' d cs L H)). Qed.

Lemma lookup_in cs d x : ssorted cs -> In (d, x) cs -> lookup cs d = x.
Proof.
  induction cs as [|[d0 x0] r IH]; simpl; [tauto|]. intros [H S] [E|Hin].
  - inversion E; subst. rewrite beqb_refl; auto.
  - pose proof (H _ Hin) as L. simpl in L. rewrite (bltb_neq _ _ L). auto.
Qed.
Lemma lookup_nz_in cs d : lookup cs d <> 0 -> In (d, lookup cs d) cs.
Proof.
  induction cs as [|[d0 x0] r IH]; simpl; [congruence|].
  destruct (beqb d0 d) eqn:E; auto. apply beqb_eq in E; subst; auto.
Qed.

Lemma sum_support lo a b d : lower_bounded lo a -> lower_bounded lo b ->
  lookup a d + lookup b d <> 0 -> bltb lo d = true.
Proof.
  intros Ba Bb H. destruct (Z.eq_dec (lookup a d) 0) as [E|N].
  - exact (Bb _ (lookup_nz_in b d ltac:(lia))).
  - exact (Ba _ (lookup_nz_in a d N)).
Qed.

(* the step every branch of the merge ends with: put (d, x) in front unless x is zero. The tail
   is bounded below by d because its amounts are zero elsewhere. *)
Lemma cons_nz_canon d x r : canon r -> (forall d', lookup r d' <> 0 -> bltb d d' = true) ->
  let r' := if x =? 0 then r else (d, x) :: r in
  canon r' /\ forall d', lookup r' d' = if beqb d d' then x else lookup r d'.
Proof.
  intros [S N] H.
  assert (B : lower_bounded d r).
  { intros [d' x'] Hin. apply (H d'). rewrite (lookup_in r d' x' S Hin). exact (proj1 (Forall_forall _ _) N _ Hin). }
  simpl. destruct (Z.eqb_spec x 0) as [->|Nx].
  - split; [split; auto|]. intros d'. destruct (beqb d d') eqn:E; auto.
    apply beqb_eq in E; subst d'. apply lookup_above, B.
  - split; [|reflexivity]. split; [split; auto|constructor; auto].
Qed.

Lemma remove_zero_canon cs : ssorted cs ->
  canon (remove_zero cs) /\ forall d, lookup (remove_zero cs) d = lookup cs d.
Proof.
  induction cs as [|[d x] r IH]; [repeat constructor|]. intros [B S]. destruct (IH S) as [C L].
  destruct (cons_nz_canon d x _ C) as [C1 L1].
  { intros d' Hd'. rewrite L in Hd'. exact (B _ (lookup_nz_in r d' Hd')). }
  split; [exact C1|]. intros d'. simpl. rewrite <- L. apply L1.
Qed.
Lemma remove_zero_id cs : nonzero cs -> remove_zero cs = cs.
Proof.
  induction 1 as [|[d a] r H _ IH]; simpl; auto. simpl in H.
  destruct (Z.eqb_spec a 0); [contradiction|]. f_equal; auto.
Qed.

Lemma canon_ext a b : canon a -> canon b -> (forall d, lookup a d = lookup b d) -> a = b.
Proof.
  revert b; induction a as [|[da xa] a IH]; intros [|[db xb] b] [Sa Na] [Sb Nb] E; auto.
  - specialize (E db). simpl in E. rewrite beqb_refl in E. inversion Nb; simpl in *; lia.
  - specialize (E da). simpl in E. rewrite beqb_refl in E. inversion Na; simpl in *; lia.
  - destruct Sa as [Ha Sa], Sb as [Hb Sb]. apply Forall_cons_iff in Na, Nb.
    destruct Na as [Za Na], Nb as [Zb Nb]. simpl in *.
    assert (da = db) as ->.
    { destruct (bltb_total da db) as [L|[->|L]]; auto; exfalso.
      - pose proof (E da) as E1. simpl in E1. rewrite beqb_refl, (bltb_neq' da db L) in E1.
        rewrite (lookup_above da b) in E1; [lia|]. exact (lower_bounded_trans _ _ _ L Hb).
      - pose proof (E db) as E1. simpl in E1. rewrite beqb_refl, (bltb_neq' db da L) in E1.
        rewrite (lookup_above db a) in E1; [lia|]. exact (lower_bounded_trans _ _ _ L Ha). }
    pose proof (E db) as E0. simpl in E0. rewrite beqb_refl in E0. subst xb.
    f_equal. apply IH; try (split; auto). intros d. specialize (E d). simpl in E.
    destruct (beqb db d) eqn:Eq; auto. apply beqb_eq in Eq; subst.
    rewrite !lookup_above; auto.
Qed.

Lemma safe_add_nil_l b : safe_add [] b = Some (remove_zero b).
Proof. destruct b; reflexivity. Qed.
Lemma safe_add_nil_r a : safe_add a [] = Some (remove_zero a).
Proof. destruct a as [|[d x] a]; reflexivity. Qed.
Lemma safe_add_cons da xa a db xb b :
  safe_add ((da, xa) :: a) ((db, xb) :: b) =
  match bcompare da db with
  | Lt => match safe_add a ((db, xb) :: b) with
          | Some r => Some (if xa =? 0 then r else (da, xa) :: r) | None => None end
  | Eq => match int_add xa xb, safe_add a b with
          | Some s, Some r => Some (if s =? 0 then r else (da, s) :: r)
          | _, _ => None end
  | Gt => match safe_add ((da, xa) :: a) b with
          | Some r => Some (if xb =? 0 then r else (db, xb) :: r) | None => None end
  end.
Proof. reflexivity. Qed.

(* the branch that takes the smaller head (d, x) off one operand and merges the rest *)
Lemma add_step d x a b r0 :
  lower_bounded d a -> lower_bounded d b -> canon r0 -> (forall d', lookup r0 d' = lookup a d' + lookup b d') ->
  let r := if x =? 0 then r0 else (d, x) :: r0 in
  canon r /\ forall d', lookup r d' = lookup ((d, x) :: a) d' + lookup b d'.
Proof.
  intros Ba Bb C0 L0. destruct (cons_nz_canon d x r0 C0) as [C L].
  { intros d'. rewrite L0. apply sum_support; auto. }
  split; [exact C|]. intros d'. rewrite L, L0. simpl. destruct (beqb d d') eqn:E; auto.
  apply beqb_eq in E; subst d'. rewrite (lookup_above d b Bb). lia.
Qed.

(* C18: Add keeps the canonical form and is the per-denomination sum *)
Theorem safe_add_canon a b r : ssorted a -> ssorted b -> safe_add a b = Some r ->
  canon r /\ forall d, lookup r d = lookup a d + lookup b d.
Proof.
  revert b r. induction a as [|[da xa] a IHa].
  - intros b r _ Sb. rewrite safe_add_nil_l. intros [= <-]. exact (remove_zero_canon b Sb).
  - induction b as [|[db xb] b IHb]; intros r Sa Sb.
    + rewrite safe_add_nil_r. intros [= <-]. destruct (remove_zero_canon _ Sa) as [C L].
      split; [exact C|]. intros d. rewrite L. symmetry. apply Z.add_0_r.
    + rewrite safe_add_cons. pose proof (bcompare_cases da db) as Lt1. destruct (bcompare da db).
      * subst db. destruct (int_add_exact xa xb) as [[_ ->]|[_ ->]]; [|discriminate].
        destruct (safe_add a b) as [r0|] eqn:Er; [|discriminate]. intros [= <-].
        destruct (IHa b r0 (proj2 Sa) (proj2 Sb) Er) as [C0 L0].
        destruct (cons_nz_canon da (xa + xb) r0 C0) as [C1 L1].
        { intros d. rewrite L0. exact (sum_support da a b d (proj1 Sa) (proj1 Sb)). }
        split; [exact C1|]. intros d. rewrite L1, L0. simpl. destruct (beqb da d); reflexivity.
      * destruct (safe_add a ((db, xb) :: b)) as [r0|] eqn:Er; [|discriminate]. intros [= <-].
        destruct (IHa _ r0 (proj2 Sa) Sb Er) as [C0 L0].
        apply add_step; auto; [exact (proj1 Sa)|exact (lower_bounded_cons _ _ _ _ Lt1 (proj1 Sb))].
      * destruct (safe_add ((da, xa) :: a) b) as [r0|] eqn:Er; [|discriminate]. intros [= <-].
        destruct (IHb r0 Sa (proj2 Sb) Er) as [C0 L0].
        destruct (add_step db xb b ((da, xa) :: a) r0 (proj1 Sb) (lower_bounded_cons _ _ _ _ Lt1 (proj1 Sa)) C0)
          as [C1 L1]; [intros d; rewrite L0; apply Z.add_comm|].
        split; [exact C1|]. intros d. rewrite L1. apply Z.add_comm.
Qed.

(* Add panics only in Int.Add, on a denomination both operands hold *)
Lemma safe_add_some a : forall b,
  (forall d xa xb, In (d, xa) a -> In (d, xb) b -> in_int (xa + xb)) -> exists r, safe_add a b = Some r.
Proof.
  induction a as [|[da xa] a IHa]; [intros; rewrite safe_add_nil_l; eauto|].
  induction b as [|[db xb] b IHb]; intros H; [rewrite safe_add_nil_r; eauto|].
  rewrite safe_add_cons. pose proof (bcompare_cases da db) as C. destruct (bcompare da db).
  - subst db. destruct (int_add_exact xa xb) as [[_ ->]|[N _]]; [|destruct N; apply (H da); simpl; auto].
    destruct (IHa b) as [r ->]; eauto. intros; eapply H; simpl; eauto.
  - destruct (IHa ((db, xb) :: b)) as [r ->]; eauto. intros; eapply H; simpl; eauto.
  - destruct IHb as [r ->]; eauto. intros; eapply H; simpl; eauto.
Qed.
Lemma safe_add_total a : forall b, ssorted a -> ssorted b ->
  (forall d, in_int (lookup a d + lookup b d)) -> exists r, safe_add a b = Some r.
Proof.
  intros b Sa Sb H. apply safe_add_some. intros d xa xb Ia Ib.
  rewrite <- (lookup_in a d xa Sa Ia), <- (lookup_in b d xb Sb Ib). apply H.
Qed.

Lemma negative_sorted b : ssorted b -> ssorted (negative b).
Proof.
  induction b as [|[d x] b IH]; simpl; auto. intros [H S]. split; auto.
  intros c Hc. unfold negative in Hc. apply in_map_iff in Hc. destruct Hc as [c0 [<- Hc0]]. simpl. apply H; auto.
Qed.
Lemma negative_lookup b d : lookup (negative b) d = - lookup b d.
Proof. induction b as [|[d0 x] b IH]; simpl; auto. destruct (beqb d0 d); auto. Qed.

Lemma is_any_negative_spec cs : ssorted cs ->
  (is_any_negative cs = true <-> exists d, lookup cs d < 0).
Proof.
  induction cs as [|[d0 x] r IH]; simpl.
  - intros _; split; [discriminate|intros [d H]; lia].
  - intros [H S]. rewrite orb_true_iff, IH by auto. simpl. split.
    + intros [L|[d L]].
      * exists d0. rewrite beqb_refl. lia.
      * exists d. destruct (beqb d0 d) eqn:E; auto. apply beqb_eq in E; subst.
        rewrite lookup_above in L by auto. lia.
    + intros [d L]. destruct (beqb d0 d) eqn:E; [left; lia|right; eauto].
Qed.

(* C18: SafeSub is the per-denomination difference and its flag is exact *)
Theorem safe_sub_spec a b r flag : ssorted a -> ssorted b -> safe_sub a b = Some (r, flag) ->
  canon r /\ (forall d, lookup r d = lookup a d - lookup b d) /\
  (flag = true <-> exists d, lookup a d - lookup b d < 0).
Proof.
  unfold safe_sub. intros Sa Sb. destruct (safe_add a (negative b)) as [r0|] eqn:E; [|discriminate].
  intros [= <- <-]. destruct (safe_add_canon _ _ _ Sa (negative_sorted b Sb) E) as [C L].
  assert (L' : forall d, lookup r0 d = lookup a d - lookup b d) by (intros; rewrite L, negative_lookup; lia).
  repeat split; auto; try apply C.
  - intros F. apply is_any_negative_spec in F; [|apply C]. destruct F as [d F]. exists d. rewrite <- L'; auto.
  - intros [d F]. apply is_any_negative_spec; [apply C|]. exists d. rewrite L'; auto.
Qed.

Lemma all_pos_lookup_nonneg a d : all_pos a -> 0 <= lookup a d.
Proof. induction 1 as [|[d0 x] r H _ IH]; simpl in *; [lia|]. destruct (beqb d0 d); lia. Qed.
Lemma all_int_lookup a d : all_int a -> in_int (lookup a d).
Proof. induction 1 as [|[d0 x] r H _ IH]; simpl in *; [split; reflexivity|]. destruct (beqb d0 d); auto. Qed.
Lemma all_pos_nonzero a : all_pos a -> nonzero a.
Proof. unfold all_pos, nonzero. apply Forall_impl. intros; lia. Qed.

(* C18: Add and Sub are inverse on canonical non-negative operands *)
Theorem add_sub_inverse a b s : ssorted a -> all_pos a -> all_int a -> ssorted b -> all_pos b ->
  safe_add a b = Some s -> coins_sub s b = Some a.
Proof.
  intros Sa Pa Ia Sb Pb E. destruct (safe_add_canon _ _ _ Sa Sb E) as [[Ss Ns] Ls].
  unfold coins_sub.
  destruct (safe_add_total s (negative b) Ss (negative_sorted b Sb)) as [r Er].
  { intros d. rewrite negative_lookup, Ls. replace (lookup a d + lookup b d + - lookup b d) with (lookup a d) by lia.
    apply all_int_lookup; auto. }
  unfold safe_sub. rewrite Er.
  destruct (safe_add_canon _ _ _ Ss (negative_sorted b Sb) Er) as [Cr Lr].
  assert (r = a) as ->.
  { apply canon_ext; auto. { split; auto. apply all_pos_nonzero; auto. }
    intros d. rewrite Lr, negative_lookup, Ls. lia. }
  destruct (is_any_negative a) eqn:F; auto.
  apply is_any_negative_spec in F; auto. destruct F as [d F].
  pose proof (all_pos_lookup_nonneg a d Pa). lia.
Qed.

(* what IsValid accepts is sorted without repeats and positive; one direction only (IsValid also
   checks the syntax of the first denomination) *)
Lemma valid_tail_spec low cs : valid_tail low cs = true ->
  ssorted cs /\ all_pos cs /\ lower_bounded low cs.
Proof.
  revert low; induction cs as [|[d x] r IH]; simpl; intros low.
  - intros _. repeat split; [constructor|intros c []].
  - intros [[L Px]%andb_prop T]%andb_prop. destruct (IH d T) as (S & Pp & LB).
    repeat split; auto.
    + constructor; auto. simpl. lia.
    + apply lower_bounded_cons; auto.
Qed.
Theorem coins_valid_canon cs : coins_valid cs = true -> ssorted cs /\ all_pos cs.
Proof.
  destruct cs as [|[d x] r]; simpl; [intros _; split; [auto|constructor]|].
  intros [[_ Px]%andb_prop T]%andb_prop. destruct (valid_tail_spec d r T) as (S & Pp & LB).
  split; [split; auto|constructor; auto; simpl; lia].
Qed.

(* C18: results of Add on valid operands are valid-shaped (sorted, no dups, positive) *)
Theorem safe_add_valid_shape a b r : ssorted a -> all_pos a -> ssorted b -> all_pos b ->
  safe_add a b = Some r -> ssorted r /\ all_pos r.
Proof.
  intros Sa Pa Sb Pb E. destruct (safe_add_canon _ _ _ Sa Sb E) as [[S N] L]. split; auto.
  apply Forall_forall. intros [d x] Hin. simpl.
  pose proof (lookup_in r d x S Hin) as Lx. rewrite L in Lx.
  pose proof (all_pos_lookup_nonneg a d Pa). pose proof (all_pos_lookup_nonneg b d Pb).
  unfold nonzero in N. rewrite Forall_forall in N. specialize (N _ Hin). simpl in N. lia.
Qed.

(* AmountOf: the binary search is a lookup on sorted coins *)
Lemma ssorted_app l1 c l2 : ssorted (l1 ++ c :: l2) ->
  ssorted l1 /\ ssorted l2 /\ (forall c', In c' l1 -> bltb (fst c') (fst c) = true) /\
  (forall c', In c' l2 -> bltb (fst c) (fst c') = true).
Proof.
  induction l1 as [|c1 l1 IH]; simpl.
  - intros [H S]. repeat split; auto; intros c' [].
  - intros [H S]. destruct (IH S) as (S1 & S2 & A & B). repeat split; auto.
    + intros c' Hc. apply H. apply in_or_app; auto.
    + intros c' [<-|Hc]; auto. apply (H c). apply in_or_app; right; left; auto.
Qed.
Lemma lookup_app_r0 l1 l2 d : lookup l2 d = 0 -> lookup (l1 ++ l2) d = lookup l1 d.
Proof.
  intros H. induction l1 as [|[d0 x0] l1 IH]; simpl; auto. destruct (beqb d0 d); auto.
Qed.
Lemma lookup_app_skip l1 l2 d : (forall c, In c l1 -> beqb (fst c) d = false) ->
  lookup (l1 ++ l2) d = lookup l2 d.
Proof.
  induction l1 as [|[d0 x0] l1 IH]; simpl; auto. intros H.
  pose proof (H (d0, x0) (or_introl eq_refl)) as E. simpl in E. rewrite E. apply IH; auto.
Qed.

Lemma skipn_mid {A} (l1 : list A) c l2 : skipn (S (length l1)) (l1 ++ c :: l2) = l2.
Proof. induction l1; simpl; auto. Qed.
Lemma firstn_mid {A} (l1 : list A) c l2 : firstn (length l1) (l1 ++ c :: l2) = l1.
Proof. induction l1; simpl; f_equal; auto. Qed.

Lemma amount_of_fuel_unfold f (cs : coins) d : (2 <= length cs)%nat ->
  amount_of_fuel (S f) cs d =
  match nth_error cs (Nat.div2 (length cs)) with
  | None => 0
  | Some (dm, am) =>
    match bcompare d dm with
    | Lt => amount_of_fuel f (firstn (Nat.div2 (length cs)) cs) d
    | Eq => am
    | Gt => amount_of_fuel f (skipn (S (Nat.div2 (length cs))) cs) d
    end
  end.
Proof.
  destruct cs as [|[d0 a0] [|c1 r]]; simpl length; try lia. intros _. reflexivity.
Qed.

Lemma lookup_split l1 dm am l2 d : ssorted (l1 ++ (dm, am) :: l2) ->
  lookup (l1 ++ (dm, am) :: l2) d =
  match bcompare d dm with Lt => lookup l1 d | Eq => am | Gt => lookup l2 d end.
Proof.
  intros Hs. destruct (ssorted_app _ _ _ Hs) as (_ & _ & A & B). simpl in A, B.
  pose proof (bcompare_cases d dm) as L. destruct (bcompare d dm).
  - subst dm. rewrite lookup_app_skip; [simpl; rewrite beqb_refl; auto|].
    intros c Hc. apply bltb_neq; auto.
  - apply lookup_app_r0. simpl. rewrite (bltb_neq' _ _ L).
    apply lookup_above. exact (lower_bounded_trans _ _ _ L B).
  - rewrite lookup_app_skip; [simpl; rewrite (bltb_neq _ _ L); auto|].
    intros c Hc. apply bltb_neq. eapply bltb_trans; eauto.
Qed.

Lemma amount_of_fuel_lookup fuel : forall cs d, (length cs <= fuel)%nat -> ssorted cs ->
  amount_of_fuel fuel cs d = lookup cs d.
Proof.
  induction fuel as [|f IH]; intros cs d Hl Hs.
  - destruct cs; simpl in *; [auto|lia].
  - destruct (Nat.lt_ge_cases (length cs) 2) as [Hlt|Hge].
    { destruct cs as [|[d0 a0] [|c1 r]]; [reflexivity|simpl; destruct (beqb d0 d); reflexivity|simpl in Hlt; lia]. }
    rewrite amount_of_fuel_unfold by auto.
    assert (Hm : (Nat.div2 (length cs) < length cs)%nat) by (apply Nat.lt_div2; lia).
    destruct (nth_error cs (Nat.div2 (length cs))) as [[dm am]|] eqn:En; [|apply nth_error_None in En; lia].
    destruct (nth_error_split cs _ En) as (l1 & l2 & -> & Hlen).
    rewrite <- Hlen, firstn_mid, skipn_mid, lookup_split by auto.
    destruct (ssorted_app _ _ _ Hs) as (S1 & S2 & _). rewrite app_length in Hl. simpl in Hl.
    destruct (bcompare d dm); [reflexivity|apply IH; auto; lia..].
Qed.

Theorem amount_of_spec cs d : ssorted cs -> valid_denom d = true -> amount_of cs d = Some (lookup cs d).
Proof. intros S V. unfold amount_of. rewrite V. f_equal. apply amount_of_fuel_lookup; auto. Qed.
Lemma ao_lookup cs d : ssorted cs -> ao cs d = lookup cs d.
Proof. intros. apply amount_of_fuel_lookup; auto. Qed.

(* C18: IsAllGTE is the per-denomination comparison, on operands sorted and positive *)
Lemma gte_forall (a b : coins) : ssorted a -> all_pos a -> ssorted b ->
  (forallb (fun cb => negb (snd cb >? ao a (fst cb))) b = true <-> forall d, lookup b d <= lookup a d).
Proof.
  intros Sa Pa Sb. rewrite forallb_forall. split.
  - intros H d. destruct (Z.eq_dec (lookup b d) 0) as [->|N]; [apply all_pos_lookup_nonneg; auto|].
    specialize (H _ (lookup_nz_in b d N)). simpl in H. rewrite ao_lookup in H by auto.
    destruct (Z.gtb_spec (lookup b d) (lookup a d)); [discriminate|lia].
  - intros H [d x] Hin. simpl. rewrite ao_lookup by auto. specialize (H d).
    rewrite (lookup_in b d x Sb Hin) in H. destruct (Z.gtb_spec x (lookup a d)); auto; lia.
Qed.
Theorem is_all_gte_spec a b : ssorted a -> all_pos a -> ssorted b -> all_pos b ->
  (is_all_gte a b = true <-> forall d, lookup b d <= lookup a d).
Proof.
  intros Sa Pa Sb Pb. unfold is_all_gte.
  destruct b as [|cb b0] eqn:Eb; [split; auto; intros _ d; simpl; apply all_pos_lookup_nonneg; auto|].
  destruct a as [|ca a0] eqn:Ea.
  - split; [discriminate|]. intros H. destruct cb as [d x]. specialize (H d). simpl in H.
    rewrite beqb_refl in H. inversion Pb; simpl in *; lia.
  - apply gte_forall; auto.
Qed.
