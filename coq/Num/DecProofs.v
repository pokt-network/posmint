(* Proofs about DecModel: chopPrecisionAndRound is round-half-even of d / 10^18 for every
   sign, the Truncate variants are toward zero, RoundUp is the ceiling, Mul/MulTruncate/
   QuoTruncate are exact; Quo and QuoRoundUp are NOT (double rounding, finding F9). *)
From Coq Require Import ZArith Lia.
From PM Require Import Num.IntProofs Num.DecModel.
Local Open Scope Z_scope.

Lemma P_pos : 0 < P. Proof. reflexivity. Qed.
Lemma P_five : P = 2 * five_precision. Proof. reflexivity. Qed.
Lemma five_pos : 0 < five_precision. Proof. reflexivity. Qed.
(* lia must not see the numerals 10^18 and 5*10^17: from here on, and in every file that imports this one, P and
   five_precision are known through P_pos, P_five and five_pos only (vm_compute still sees through) *)
Global Opaque P five_precision.

Definition is_rhe (n d q : Z) : Prop :=
  2 * Z.abs (d * q - n) <= d /\ (2 * Z.abs (d * q - n) = d -> Z.even q = true).

Lemma round_half_even_ok n d : 0 < d -> is_rhe n d (round_half_even n d).
Proof.
  intros Hd. unfold is_rhe, round_half_even.
  pose proof (Z.div_mod n d ltac:(lia)) as E. pose proof (Z.mod_pos_bound n d Hd) as B.
  set (q := n / d) in *. set (r := n mod d) in *.
  destruct (Z.compare_spec (2 * r) d) as [H|H|H].
  - destruct (Z.even q) eqn:Ev; (split; [lia|intros _]).
    + exact Ev.
    + rewrite Z.even_add, Ev. reflexivity.
  - split; lia.
  - split; lia.
Qed.

(* were q1 < q2 both roundings of n/d, they would be neighbours with n/d the tie between them,
   and both even *)
Lemma is_rhe_lt n d q1 q2 : 0 < d -> is_rhe n d q1 -> is_rhe n d q2 -> ~ q1 < q2.
Proof.
  intros Hd [A1 E1] [A2 E2] L.
  assert (q2 = q1 + 1) as -> by nia.
  assert (T1 : 2 * Z.abs (d * q1 - n) = d) by lia. assert (T2 : 2 * Z.abs (d * (q1 + 1) - n) = d) by lia.
  apply E1 in T1. apply E2 in T2. rewrite Z.even_add, T1 in T2. discriminate.
Qed.

Lemma round_half_even_unique n d q1 q2 : 0 < d -> is_rhe n d q1 -> is_rhe n d q2 -> q1 = q2.
Proof.
  intros Hd H1 H2.
  destruct (Z.lt_trichotomy q1 q2) as [L|[E|L]]; [|exact E|]; exfalso; revert L; eapply is_rhe_lt; eauto.
Qed.

Lemma is_rhe_opp n d q : is_rhe n d q -> is_rhe (- n) d (- q).
Proof.
  unfold is_rhe. intros [A E]. replace (d * - q - - n) with (- (d * q - n)) by lia.
  rewrite Z.abs_opp, Z.even_opp. auto.
Qed.

(* chopPrecisionAndRound compares the remainder with P/2 where the specification compares twice
   the remainder with P *)
Lemma chop_round_pos_eq d : chop_round_pos d = round_half_even d P.
Proof.
  unfold chop_round_pos, round_half_even. set (q := d / P). set (r := d mod P). cbv zeta.
  rewrite P_five, Zcompare_mult_compat.
  destruct (Z.eqb_spec r 0) as [->|]; [|reflexivity].
  rewrite (proj2 (Z.compare_lt_iff 0 five_precision) five_pos). reflexivity.
Qed.

(* C18: Dec rounding is half-to-even, for either sign *)
Theorem chop_round_spec d : is_rhe d P (chop_round d).
Proof.
  unfold chop_round. rewrite !chop_round_pos_eq. destruct (d <? 0).
  - rewrite <- (Z.opp_involutive d) at 1. apply is_rhe_opp, round_half_even_ok, P_pos.
  - apply round_half_even_ok, P_pos.
Qed.
Theorem chop_round_eq d : chop_round d = round_half_even d P.
Proof.
  apply (round_half_even_unique d P); [apply P_pos|apply chop_round_spec|apply round_half_even_ok, P_pos].
Qed.
Theorem chop_round_opp d : chop_round (- d) = - chop_round d.
Proof.
  apply (round_half_even_unique (- d) P); [apply P_pos|apply chop_round_spec|apply is_rhe_opp, chop_round_spec].
Qed.

Theorem chop_trunc_spec d : chop_trunc d = Z.quot d P.
Proof. reflexivity. Qed.
Lemma ceil_div_spec n d : 0 < d -> d * (ceil_div n d - 1) < n <= d * ceil_div n d.
Proof.
  intros Hd. unfold ceil_div.
  pose proof (Z.div_mod (- n) d ltac:(lia)). pose proof (Z.mod_pos_bound (- n) d Hd). nia.
Qed.
Theorem chop_round_up_eq d : chop_round_up d = ceil_div d P.
Proof.
  pose proof P_pos. unfold chop_round_up, chop_trunc, ceil_div. destruct (Z.ltb_spec d 0).
  - rewrite Z.quot_div_nonneg by lia. reflexivity.
  - cbv zeta. destruct (Z.eqb_spec (d mod P) 0); [rewrite Z.div_opp_l_z|rewrite Z.div_opp_l_nz]; lia.
Qed.

Definition in_dec (z : Z) : Prop := Z.abs z < 2 ^ 315.
Lemma dec_chk_spec z : (in_dec z /\ dec_chk z = Some z) \/ (~ in_dec z /\ dec_chk z = None).
Proof. apply checked_spec. unfold dec_ok. rewrite Z.leb_le. apply bitlen_le. discriminate. Qed.

Theorem dec_mul_exact a b : dec_mul a b = dec_chk (round_half_even (a * b) P).
Proof. unfold dec_mul. rewrite chop_round_eq. reflexivity. Qed.
Theorem dec_mul_truncate_exact a b : dec_mul_truncate a b = dec_chk (Z.quot (a * b) P).
Proof. reflexivity. Qed.

(* QuoTruncate is exact: trunc(trunc(a*10^36 / b) / 10^18) = trunc(a*10^18 / b) *)
Theorem dec_quo_truncate_exact a b : b <> 0 ->
  dec_quo_truncate a b = dec_chk (spec_quo_truncate a b).
Proof.
  intros Hb. pose proof P_pos. unfold dec_quo_truncate, spec_quo_truncate, chop_trunc.
  destruct (Z.eqb_spec b 0); [contradiction|].
  rewrite Z.quot_quot by lia. rewrite Z.quot_mul_cancel_r by lia. reflexivity.
Qed.

Theorem dec_ceil_exact a : dec_ceil a = ceil_div a P * P.
Proof.
  pose proof P_pos as HP. pose proof (ceil_div_spec a P HP) as C.
  pose proof (Z.quot_rem' a P) as E. pose proof (Z.rem_bound_abs a P ltac:(lia)) as B.
  unfold dec_ceil. cbv zeta. set (q := Z.quot a P) in *. set (r := Z.rem a P) in *.
  destruct (Z.eqb_spec r 0); [|destruct (Z.ltb_spec r 0)]; f_equal; nia.
Qed.

(* Quo and QuoRoundUp do not round the exact quotient (finding F9) *)
Theorem dec_quo_refuted : exists a b, b <> 0 /\ dec_quo a b <> dec_chk (spec_quo a b).
Proof. exists 1, 1999999999999999999. split; [discriminate|]. vm_compute. discriminate. Qed.
Theorem dec_quo_round_up_refuted : exists a b, b <> 0 /\ dec_quo_round_up a b <> dec_chk (spec_quo_round_up a b).
Proof. exists 1, 2000000000000000000000000000000000000. split; [discriminate|]. vm_compute. discriminate. Qed.

(* what Quo does compute: half-even rounding of the 36-digit TRUNCATED quotient *)
Theorem dec_quo_partial a b : b <> 0 ->
  dec_quo a b = dec_chk (round_half_even (Z.quot (a * P * P) b) P).
Proof. intros Hb. unfold dec_quo. destruct (Z.eqb_spec b 0); [contradiction|]. rewrite chop_round_eq; auto. Qed.
Theorem dec_quo_round_up_partial a b : b <> 0 ->
  dec_quo_round_up a b = dec_chk (ceil_div (Z.quot (a * P * P) b) P).
Proof. intros Hb. unfold dec_quo_round_up. destruct (Z.eqb_spec b 0); [contradiction|]. rewrite chop_round_up_eq; auto. Qed.

(* and it is exact whenever the division at 36 digits is exact (no second rounding) *)
Lemma rhe_scale n d k : 0 < d -> 0 < k -> round_half_even (n * k) (d * k) = round_half_even n d.
Proof.
  intros Hd Hk. apply (round_half_even_unique (n * k) (d * k)); [nia|apply round_half_even_ok; nia|].
  destruct (round_half_even_ok n d Hd) as [A E]. unfold is_rhe. set (q := round_half_even n d) in *.
  replace (d * k * q - n * k) with ((d * q - n) * k) by lia. rewrite Z.abs_mul, (Z.abs_eq k) by lia.
  split; [nia|]. intros; apply E; nia.
Qed.
Theorem dec_quo_exact_when_divisible a b : 0 < b -> Z.rem (a * P * P) b = 0 ->
  dec_quo a b = dec_chk (spec_quo a b).
Proof.
  intros Hb Hr. rewrite dec_quo_partial by lia. f_equal. unfold spec_quo.
  destruct (Z.ltb_spec b 0); [lia|]. pose proof P_pos.
  pose proof (Z.quot_rem' (a * P * P) b) as E. rewrite Hr in E.
  set (t := Z.quot (a * P * P) b) in *.
  rewrite <- (rhe_scale t P b) by lia. rewrite <- (rhe_scale (a * P) b P) by lia.
  f_equal; lia.
Qed.
