(* Non-vacuity witnesses for the Props files: the example genesis of Examples.v satisfies the history-level
   invariants of the pos module (bank, pool, index sound and complete, queue complete and sound), and the example
   history meets what they ask of every operation. *)
From Coq Require Import List ZArith NArith Lia.
From PM Require Import App.Model App.BankProofs App.IndexProofs App.IndexComplete App.PoolProofs App.QueueProofs App.Examples.
Import ListNotations.
Local Open Scope Z_scope.

Definition ex_ma : modaddrs := {| m_fee := FEE; m_pool := POOL; m_pos := POS; m_dao := DAO |}.
Lemma ex_s0_idx_sound : idx_sound ex_s0.
Proof. split; [exact I|split; [exact I|]]. intros k a E. discriminate E. Qed.
Lemma ex_s0_queue_ok : queue_ok ex_s0.
Proof. split; [exact I|split; [exact I|]]. intros b v _ E. discriminate E. Qed.
Lemma ex_genesis_all_ok : exists s ups, ex_genesis = Some (s, ups) /\ bank_ok s /\ idx_sound s /\ pool_ok ex_ma s /\ queue_ok s.
Proof.
  apply ex_genesis_has. intros s ups E. split; [|split; [|split]].
  - eapply init_chain_pres; [exact ex_s0_bank_ok|exact E].
  - eapply init_chain_is; [exact ex_s0_idx_sound| | |exact E].
    + repeat constructor. intros [].
    + intros g [<-|[]]. reflexivity.
  - apply (init_chain_pool ex_ma ex_s0 [(A1, [11]%N, 2000000)] 500 s ups); [reflexivity|exact ex_s0_bank_ok| | | | | | |exact E].
    + split; [exact I|]. intros a v Ea. discriminate Ea.
    + repeat split; discriminate.
    + intros g [<-|[]]. reflexivity.
    + repeat constructor. intros [].
    + intros g [<-|[]]. cbn. lia.
    + vm_compute. discriminate.
  - eapply init_chain_q; [exact ex_s0_queue_ok|exact E].
Qed.
Lemma ex_ops_signers_ok : Forall (op_ok ex_ma) ex_ops.
Proof. repeat constructor; cbn; discriminate. Qed.

Lemma ex_s0_idx_exact : idx_exact ex_s0.
Proof.
  split; [exact ex_s0_idx_sound|]. split; [exact I|split; [exact I|]]. split; intros a v E; discriminate E.
Qed.
Lemma ex_genesis_idx_exact : exists s ups, ex_genesis = Some (s, ups) /\ idx_exact s /\ queue_sound s.
Proof.
  apply (ex_genesis_has (fun s => idx_exact s /\ queue_sound s)). intros s ups E. split.
  - eapply init_chain_exact; [exact ex_s0_idx_exact| | | |exact E].
    + repeat constructor. intros [].
    + intros g [<-|[]]. reflexivity.
    + intros g [<-|[]]. repeat constructor.
  - eapply init_chain_qs; [| | |exact E].
    + split; [exact I|split; [exact I|]]. intros k l a Ek. discriminate Ek.
    + repeat constructor. intros [].
    + intros g [<-|[]]. reflexivity.
Qed.
Lemma ex_ops_wf : Forall op_wf ex_ops.
Proof. repeat constructor; cbn; repeat constructor. Qed.
