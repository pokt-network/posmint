(* C05 / C06 / C09: the power index is SOUND in every reachable state of every history: each of
   its entries names an existing validator that is staked, not jailed, and stored under the key
   computed from its CURRENT stake. Hence a jailed, unstaking or unstaked validator is never in
   the index (never offered to Tendermint), whatever the history. The work is done on the pair
   (validators, index): deleting a key, inserting the key of a staked unjailed record, and writing or
   deleting the record of an address that has no index entry ([noent]) each keep soundness; every
   function of the model is a composition of these. *)
From Coq Require Import List ZArith NArith.
From PM Require Import Base.Bytes Store.KV Store.KVProofs App.Model App.Walk.
Import ListNotations.
Local Open Scope Z_scope.

Definition isound (V : amap validator) (P : amap bytes) : Prop :=
  asorted V /\ asorted P /\
  forall k a, aget P k = Some a ->
    exists v, aget V a = Some v /\ v_status v = 2%N /\ v_jailed v = false /\ k = rank_key (v_tokens v) a.
Definition noent (P : amap bytes) (a : bytes) : Prop := forall k, aget P k <> Some a.
Definition idx_sound (s : state) : Prop := isound (vals s) (powidx s).


Lemma noent_absent V P a : isound V P -> aget V a = None -> noent P a.
Proof. intros (_ & _ & H) E k Hk. destruct (H k a Hk) as (v & Hv & _). congruence. Qed.
Lemma noent_unindexed V P a v : isound V P -> aget V a = Some v -> (v_status v <> 2%N \/ v_jailed v = true) -> noent P a.
Proof.
  intros (_ & _ & H) E C k Hk. destruct (H k a Hk) as (v' & Hv & St & J & _).
  rewrite E in Hv. injection Hv as <-. destruct C as [C|C]; congruence.
Qed.
Lemma is_del V P a v : isound V P -> aget V a = Some v ->
  isound V (adel P (rank_key (v_tokens v) a)) /\ noent (adel P (rank_key (v_tokens v) a)) a.
Proof.
  intros (SV & SP & H) E. split; [split; [auto|split; [apply adel_sorted; auto|]]|].
  - intros k b. rewrite aget_adel by auto. destruct (beqb _ k); [discriminate|]. apply H.
  - intros k. rewrite aget_adel by auto. destruct (beqb (rank_key (v_tokens v) a) k) eqn:B; [discriminate|].
    intros Hk. destruct (H k a Hk) as (v' & Hv & _ & _ & Ek). rewrite E in Hv. injection Hv as <-.
    apply beqb_false_neq in B. congruence.
Qed.
Lemma is_put V P a v1 : isound V P -> noent P a -> isound (aset V a v1) P.
Proof.
  intros (SV & SP & H) N. split; [apply aset_sorted; auto|split; [auto|]].
  intros k b Hk. destruct (H k b Hk) as (v & Hv & R). exists v. split; auto.
  rewrite aget_aset. destruct (beqb a b) eqn:B; auto.
  apply beqb_eq in B; subst b. exfalso. apply (N k Hk).
Qed.
Lemma is_set V P a v1 : isound V P -> aget V a = Some v1 -> v_status v1 = 2%N -> v_jailed v1 = false ->
  isound V (aset P (rank_key (v_tokens v1) a) a).
Proof.
  intros (SV & SP & H) E St J. split; [auto|split; [apply aset_sorted; auto|]].
  intros k b. rewrite aget_aset. destruct (beqb (rank_key (v_tokens v1) a) k) eqn:B.
  - intros [= <-]. apply beqb_eq in B. exists v1. auto.
  - apply H.
Qed.
Lemma is_delval V P a : isound V P -> noent P a -> isound (adel V a) P.
Proof.
  intros (SV & SP & H) N. split; [apply adel_sorted; auto|split; [auto|]].
  intros k b Hk. destruct (H k b Hk) as (v & Hv & R). exists v. split; auto.
  rewrite aget_adel by auto. destruct (beqb a b) eqn:B; auto.
  apply beqb_eq in B; subst b. exfalso. apply (N k Hk).
Qed.

(* unfolds idx_sound and reads vals and powidx through the setters of the state *)
Ltac ik := unfold idx_sound in *; cbn [vals powidx set_bank set_vals set_powidx set_prev set_unstq set_sign
                                       set_queues set_misc set_params set_block put_val] in *.

Lemma set_staked_is s a v1 : idx_sound s -> get_val s a = Some v1 -> idx_sound (set_staked s a v1).
Proof.
  unfold set_staked, get_val. intros H E. destruct (v_jailed v1) eqn:J; [exact H|]. cbn [orb].
  destruct (v_status v1 =? 2)%N eqn:St; [|exact H]. cbn [negb]. apply N.eqb_eq in St. ik. apply is_set; auto.
Qed.
Lemma del_staked_is s a v : idx_sound s -> get_val s a = Some v ->
  idx_sound (del_staked s a v) /\ noent (powidx (del_staked s a v)) a.
Proof. unfold del_staked, get_val. intros H E. ik. apply is_del; auto. Qed.
Lemma put_val_is s a v1 : idx_sound s -> noent (powidx s) a -> idx_sound (put_val s a v1).
Proof. intros H N. ik. apply is_put; auto. Qed.

Lemma reindexed_is s a v v1 : idx_sound s -> get_val s a = Some v -> idx_sound (reindexed s a v v1).
Proof.
  intros H E. destruct (del_staked_is s a v H E) as [H1 N1].
  apply set_staked_is; [apply put_val_is; auto|apply get_put_val].
Qed.
Lemma force_unstake_is s a v s' : idx_sound s -> get_val s a = Some v -> force_unstake s a v = Some s' -> idx_sound s'.
Proof.
  intros H E F. destruct (force_unstake_inv _ _ _ _ F) as (ac & su & ->). destruct (del_staked_is s a v H E) as [H0 N0].
  apply put_val_is; [exact H0|exact N0].
Qed.

Theorem index_leaves : leaves (fun s s' => idx_sound s -> idx_sound s').
Proof.
  destruct (bank_moves_in (fun s s' => idx_sound s -> idx_sound s') (fun s ac su H => H)) as (Sd & Mi & Bu).
  constructor; try (intros; assumption); auto.
  - (* l_sign *) intros s si mi H; exact H.
  - (* l_params *) intros s k v raw H. unfold apply_param. destruct v; exact H.
  - (* l_cut *) intros s a v sa E _ burn s2. assert (K : idx_sound s -> idx_sound s2) by (intros H; apply reindexed_is; auto).
    destruct (burn_staked s2 burn) eqn:E3; [|exact K]. intros H. bank_only (burn_staked_sets _ _ _ E3). exact (K H).
  - (* l_force *) intros s a v s' E F H. exact (force_unstake_is _ _ _ _ H E F).
  - (* l_jail *) intros s a s' Ej H. destruct (jail_inv _ _ _ Ej) as (v & E & _ & ->).
    change (idx_sound (put_val (del_staked s a v) a (with_jailed v true))).
    destruct (del_staked_is s a v H E) as [H1 N1]. apply put_val_is; auto.
  - (* l_finish *) intros s a v s' E St F H. destruct (finish_unstaking_inv _ _ _ _ F) as (ac & su & _ & ->). apply is_delval; [exact H|].
    eapply noent_unindexed; [exact H|exact E|left; rewrite St; discriminate].
  - (* l_stake *) (* stake: only an unstaked (or new) validator, which has no index entry *)
    intros s pk a amt H. destruct (stake_inv s pk a amt) as [->|(v0 & s1 & G & St0 & _ & _ & K)]; [exact H|].
    assert (H1 : idx_sound s1 /\ noent (powidx s1) a).
    { destruct G as [[E ->]|(E & _ & ->)].
      - split; [exact H|]. eapply noent_unindexed; [exact H|exact E|left; rewrite St0; discriminate].
      - assert (N : noent (powidx s) a) by (eapply noent_absent; [exact H|exact E]).
        split; [exact (put_val_is s a v0 H N)|exact N]. }
    destruct K as [[_ ->]|(s2 & E & K)]; [apply H1|].
    assert (H2 : idx_sound s2 /\ noent (powidx s2) a) by (bank_only (bank_send_sets _ _ _ _ _ E); exact H1).
    cbv zeta in K. set (v1 := with_status (with_tokens v0 (v_tokens v0 + amt)) 2) in K.
    assert (H3 : idx_sound (set_staked (put_val s2 a v1) a v1)).
    { apply set_staked_is; [apply put_val_is; apply H2|apply get_put_val]. }
    destruct K as [[-> _]|[-> _]]; exact H3.
  - (* l_unstake *) intros s a H. cbn [handle]. destruct (get_val s a) as [v|] eqn:E; [|exact H]. destruct (negb _); [exact H|].
    destruct (_ <? _); [exact H|]. destruct (del_staked_is s a v H E) as [H1 N1].
    exact (put_val_is _ a (with_unstime (with_status v 1) (btime s + p_unstaking_time (pp s))) H1 N1).
  - (* l_unjail *) intros s a H. destruct (unjail_inv s a) as [->|(v & si & E & Jv & _ & _ & _ & _ & _ & ->)]; [exact H|].
    assert (N : noent (powidx s) a) by (eapply noent_unindexed; [exact H|exact E|auto]).
    apply set_staked_is; [apply put_val_is; auto|apply get_put_val].
Qed.
Definition index_closed := leaves_closed _ index_leaves.

Theorem step_is s o s' : idx_sound s -> step s o = Some s' -> idx_sound s'.
Proof. intros H E. exact (closed_step _ _ index_closed s o s' I E H). Qed.
Theorem run_is ops : forall s s', idx_sound s -> run ops s = Some s' -> idx_sound s'.
Proof. intros s s' H E. exact (closed_run _ _ index_closed ops (all_ops ops) s s' E H). Qed.

Definition g_addr (g : bytes * bytes * Z) : bytes := fst (fst g).
Lemma genesis_validator_is s g : idx_sound s -> aget (vals s) (g_addr g) = None -> idx_sound (genesis_validator s g).
Proof.
  destruct g as [[a pk] tokens]. unfold genesis_validator, g_addr. cbn [fst]. intros H E.
  assert (N : noent (powidx s) a) by (eapply noent_absent; [exact H|exact E]).
  set (v := {| v_pk := pk; v_jailed := false; v_status := 2; v_tokens := tokens; v_unstime := 0 |}).
  assert (H1 : idx_sound (set_staked (put_val s a v) a v)).
  { apply set_staked_is; [apply put_val_is; auto|apply get_put_val]. }
  ik. exact H1.
Qed.
Lemma genesis_validator_vals s g b : g_addr g <> b ->
  aget (vals (genesis_validator s g)) b = aget (vals s) b.
Proof.
  destruct g as [[a pk] tokens]. unfold genesis_validator, g_addr. cbn [fst]. intros Nab.
  cbn [vals set_misc set_sign]. rewrite set_staked_vals. cbn [vals put_val set_vals].
  rewrite aget_aset. destruct (beqb a b) eqn:B; auto. apply beqb_eq in B. contradiction.
Qed.
(* an invariant that one fresh genesis validator keeps is kept by a list of them with distinct fresh addresses *)
Lemma genesis_fold_fresh (I : state -> Prop) :
  (forall s g, I s -> aget (vals s) (g_addr g) = None -> I (genesis_validator s g)) ->
  forall gvals s, I s -> NoDup (map g_addr gvals) -> (forall g, In g gvals -> aget (vals s) (g_addr g) = None) ->
  I (fold_left genesis_validator gvals s).
Proof.
  intros G. induction gvals as [|g r IH]; intros s H ND A; simpl; auto.
  inversion ND as [|? ? NI ND']; subst. apply IH; auto.
  - apply G; auto. apply A; left; auto.
  - intros g' Hg'. rewrite genesis_validator_vals; [apply A; right; auto|].
    intros E. apply NI. rewrite E. apply in_map; auto.
Qed.
Theorem init_chain_is s0 gvals dao s ups :
  idx_sound s0 -> NoDup (map g_addr gvals) -> (forall g, In g gvals -> aget (vals s0) (g_addr g) = None) ->
  init_chain s0 gvals dao = Some (s, ups) -> idx_sound s.
Proof.
  intros H ND A E. destruct (init_chain_inv _ _ _ _ _ E) as (s2 & E2 & K).
  pose proof (genesis_fold_fresh idx_sound genesis_validator_is gvals s0 H ND A) as H1.
  pose proof (c_update _ _ index_closed _ _ _ E2 H1) as H2.
  destruct K as [->|K]; [exact H2|]. bank_only (bank_mint_sets _ _ _ _ K). exact H2.
Qed.

Theorem indexed_is_staked_unjailed s k a : idx_sound s -> aget (powidx s) k = Some a ->
  exists v, get_val s a = Some v /\ v_status v = 2%N /\ v_jailed v = false /\ k = rank_key (v_tokens v) a.
Proof. intros (_ & _ & H). apply H. Qed.
Theorem jailed_never_indexed s a v : idx_sound s -> get_val s a = Some v -> v_jailed v = true ->
  forall k, aget (powidx s) k <> Some a.
Proof. intros H E J. eapply noent_unindexed; [exact H|exact E|auto]. Qed.
Theorem not_staked_never_indexed s a v : idx_sound s -> get_val s a = Some v -> v_status v <> 2%N ->
  forall k, aget (powidx s) k <> Some a.
Proof. intros H E J. eapply noent_unindexed; [exact H|exact E|auto]. Qed.
