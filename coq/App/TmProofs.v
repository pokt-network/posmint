(* C05 over whole histories: read any history as a conversation with Tendermint. Tendermint starts with the set the
   module has on record; at every EndBlock it applies the returned batch to its set. Then (1) every batch of every
   EndBlock of the history IS applicable to the set Tendermint has at that moment (no address twice, no negative power,
   removals only of members), and (2) after every EndBlock Tendermint's set equals the module's record, which by
   UpdateProofs is exactly the first MaxValidators entries of the power index with power floor(stake/10^6).
   Nothing but the validator-set update of EndBlock ever touches the module's record (generic frame, App/Frames.v). *)
From Coq Require Import List ZArith NArith.
From PM Require Import Store.KV Store.KVProofs App.Model App.Walk App.IndexProofs App.PoolProofs App.UpdateProofs App.Frames.
Import ListNotations.
Local Open Scope Z_scope.

Lemma prevpow_step s o s' : o <> OEnd -> step s o = Some s' -> prevpow s' = prevpow s.
Proof. apply (fr_step _ prevpow); intros; reflexivity. Qed.
Lemma prevpow_unstake_mature s s' : unstake_mature s = Some s' -> prevpow s' = prevpow s.
Proof. apply (fr_unstake_mature _ prevpow); intros; reflexivity. Qed.

Lemma op_eq_end o : {o = OEnd} + {o <> OEnd}.
Proof. destruct o; try (right; discriminate). left. reflexivity. Qed.

Inductive tm_run : list op -> state -> amap Z -> state -> amap Z -> Prop :=
| tr_nil s tm : tm_run [] s tm s tm
| tr_end s tm s1 ups r s' tm' : end_block s = Some (s1, ups) -> applicable tm ups ->
    tm_run r s1 (apply_updates ups tm) s' tm' -> tm_run (OEnd :: r) s tm s' tm'
| tr_other o s tm s1 r s' tm' : o <> OEnd -> step s o = Some s1 -> tm_run r s1 tm s' tm' -> tm_run (o :: r) s tm s' tm'.

Section Tm.
Variable MA : modaddrs.
Definition tinv (s : state) : Prop := pool_ok MA s /\ idx_sound s /\ asorted (prevpow s).

Lemma end_block_tm s s1 ups : tinv s -> end_block s = Some (s1, ups) ->
  applicable (prevpow s) ups /\ prevpow s1 = apply_updates ups (prevpow s) /\ tinv s1.
Proof.
  intros (HP & HI & HS) E. pose proof (end_block_pool MA _ _ _ HP E) as HP1. pose proof (closed_end_block _ _ index_closed _ _ _ E HI) as HI1.
  unfold end_block in E. destruct (update_tm_validators s) as [[sa u]|] eqn:Eu; [|discriminate].
  destruct (unstake_mature sa) as [sb|] eqn:Em; [|discriminate]. injection E as <- <-.
  destruct (updates_applicable s sa u HI (fun a v Ev => proj1 (val_facts MA s a v HP Ev)) HS Eu) as (A & P & S).
  unfold tinv. rewrite (prevpow_unstake_mature _ _ Em). auto.
Qed.
Theorem history_as_seen_by_tendermint ops : forall s s', tinv s -> Forall (op_ok MA) ops -> run ops s = Some s' ->
  tm_run ops s (prevpow s) s' (prevpow s') /\ tinv s'.
Proof.
  unfold run. induction ops as [|o r IH]; simpl; intros s s' H F E.
  - injection E as <-. split; [constructor|exact H].
  - inversion F as [|? ? Fo Fr]; subst. destruct (step s o) as [s1|] eqn:Es; [|discriminate].
    destruct (op_eq_end o) as [->|N].
    + cbn [step] in Es. destruct (end_block s) as [[sx ups]|] eqn:Ee; [|discriminate]. injection Es as <-.
      destruct (end_block_tm s sx ups H Ee) as (A & P & H1).
      destruct (IH sx s' H1 Fr E) as [T H']. split; [|exact H'].
      eapply tr_end; [exact Ee|exact A|]. rewrite <- P. exact T.
    + assert (H1 : tinv s1).
      { destruct H as (HP & HI & HS). split; [eapply step_pool; eauto|]. split; [eapply step_is; eauto|].
        rewrite (prevpow_step _ _ _ N Es). exact HS. }
      destruct (IH s1 s' H1 Fr E) as [T H']. split; [|exact H'].
      eapply tr_other; [exact N|exact Es|]. rewrite <- (prevpow_step _ _ _ N Es). exact T.
Qed.
End Tm.
