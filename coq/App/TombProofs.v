(* C09: a validator convicted of double signing is tombstoned and jailed PERMANENTLY.
   In every reachable state of every history: (1) a tombstone is never lifted, (2) a validator whose
   signing info is tombstoned is jailed whenever it has a record at all (after the repair of
   finding F24, a tombstoned address can never stake again), hence - with the soundness of the
   power index - it is never offered to Tendermint again. *)
From Coq Require Import List ZArith NArith Bool.
From PM Require Import Base.Bytes Store.KV Store.KVProofs App.Model App.Walk App.IndexProofs.
Import ListNotations.
Local Open Scope Z_scope.

Definition tombed (S : amap signinfo) (a : bytes) : Prop := exists si, aget S a = Some si /\ si_tomb si = true.
Definition tomb_ok (s : state) : Prop :=
  asorted (sinfo s) /\ asorted (vals s) /\
  forall a v, tombed (sinfo s) a -> aget (vals s) a = Some v -> v_jailed v = true.
Definition tomb_mono (s s' : state) : Prop := forall a, tombed (sinfo s) a -> tombed (sinfo s') a.
Lemma tomb_mono_refl s : tomb_mono s s. Proof. intros a H; exact H. Qed.
Lemma tomb_mono_trans s1 s2 s3 : tomb_mono s1 s2 -> tomb_mono s2 s3 -> tomb_mono s1 s3.
Proof. intros A B a H. apply B, A, H. Qed.
Definition tk (s s' : state) : Prop := tomb_ok s' /\ tomb_mono s s'.

Lemma tframe s s' : sinfo s' = sinfo s -> vals s' = vals s -> tomb_ok s -> tk s s'.
Proof. unfold tk, tomb_ok, tomb_mono. intros -> ->. intros H. split; auto. Qed.
Lemma tk_trans s1 s2 s3 : tk s1 s2 -> tk s2 s3 -> tk s1 s3.
Proof. intros [_ M1] [O M2]. split; auto. eapply tomb_mono_trans; eauto. Qed.
Lemma tk_refl s : tomb_ok s -> tk s s.
Proof. intros H. split; auto. apply tomb_mono_refl. Qed.

Lemma put_val_tk s a v1 : tomb_ok s ->
  (v_jailed v1 = true \/ ~ tombed (sinfo s) a \/ (exists v, get_val s a = Some v /\ v_jailed v1 = v_jailed v)) ->
  tk s (put_val s a v1).
Proof.
  intros (SS & SV & H) C. split; [|intros b Hb; exact Hb]. split; [exact SS|]. split; [apply aset_sorted; auto|].
  cbn [sinfo vals put_val set_vals]. intros b w Tb. rewrite aget_aset. destruct (beqb a b) eqn:B.
  - apply beqb_eq in B; subst b. intros [= <-]. destruct C as [C|[C|(v & E & C)]]; [exact C|contradiction|].
    rewrite C. apply (H a v Tb E).
  - apply H; auto.
Qed.
Lemma del_val_tk s a : tomb_ok s -> tk s (set_vals s (adel (vals s) a)).
Proof.
  intros (SS & SV & H). split; [|intros b Hb; exact Hb]. split; [exact SS|]. split; [apply adel_sorted; auto|].
  cbn [sinfo vals set_vals]. intros b w Tb. rewrite aget_adel by auto. destruct (beqb a b); [discriminate|]. apply H; auto.
Qed.
Lemma set_sinfo_tk s a si1 mi : tomb_ok s ->
  ((exists si, aget (sinfo s) a = Some si /\ si_tomb si1 = si_tomb si) \/ si_tomb si1 = false \/
   (forall v, get_val s a = Some v -> v_jailed v = true)) ->
  (forall si, aget (sinfo s) a = Some si -> si_tomb si = true -> si_tomb si1 = true) ->
  tk s (set_sign s (aset (sinfo s) a si1) mi).
Proof.
  intros (SS & SV & H) C K. split.
  - split; [apply aset_sorted; auto|]. split; [exact SV|]. cbn [sinfo vals set_sign].
    intros b w (sb & Eb & Tb). rewrite aget_aset in Eb. destruct (beqb a b) eqn:B.
    + apply beqb_eq in B; subst b. injection Eb as <-. intros Ev.
      destruct C as [(si & Es & C)|[C|C]].
      * apply (H a w); auto. exists si. split; auto. congruence.
      * congruence.
      * apply C; auto.
    + apply H. exists sb; auto.
  - intros b (sb & Eb & Tb). cbn [sinfo set_sign]. unfold tombed. rewrite aget_aset. destruct (beqb a b) eqn:B.
    + apply beqb_eq in B; subst b. exists si1. split; auto. eapply K; eauto.
    + exists sb; auto.
Qed.

Lemma same_flag_tk s a si si' mi : tomb_ok s -> aget (sinfo s) a = Some si -> si_tomb si' = si_tomb si ->
  tk s (set_sign s (aset (sinfo s) a si') mi).
Proof.
  intros H E T. apply set_sinfo_tk; auto.
  - left. exists si; auto.
  - intros si0 E0 T0. rewrite E in E0. injection E0 as <-. congruence.
Qed.
Lemma set_staked_tk x s a v : tk x s -> tk x (set_staked s a v).
Proof. unfold set_staked. destruct (_ || _); intros H; exact H. Qed.

(* the slashing machinery (the cut of a slash, the forced unstake) writes no signing info, creates no record and changes
   nobody's jailed flag; the sortedness it needs sits inside, so that the relation is a preorder on all states *)
Definition keeps (s s' : state) : Prop := asorted (vals s) ->
  asorted (vals s') /\ sinfo s' = sinfo s /\
  forall a v', get_val s' a = Some v' -> exists v, get_val s a = Some v /\ v_jailed v' = v_jailed v.
Lemma keeps_refl s : keeps s s.
Proof. intros S. split; [exact S|]. split; [reflexivity|]. intros a v E. exists v; auto. Qed.
Lemma keeps_trans s1 s2 s3 : keeps s1 s2 -> keeps s2 s3 -> keeps s1 s3.
Proof.
  intros A B S. destruct (A S) as (S2 & E2 & F2). destruct (B S2) as (S3 & E3 & F3). split; [exact S3|]. split; [congruence|].
  intros a v3 G3. destruct (F3 a v3 G3) as (v2 & G2 & J2). destruct (F2 a v2 G2) as (v1 & G1 & J1).
  exists v1. split; [exact G1|congruence].
Qed.
Lemma keeps_tk s s' : keeps s s' -> tomb_ok s -> tk s s' /\ sinfo s' = sinfo s.
Proof.
  intros K (SS & SV & H). destruct (K SV) as (SV' & E & F). split; [|exact E]. split; [|intros b; rewrite E; auto].
  split; [rewrite E; exact SS|]. split; [exact SV'|]. rewrite E. intros a v' T G'.
  destruct (F a v' G') as (v & G & ->). exact (H a v T G).
Qed.
Lemma keeps_jailed s s' a : keeps s s' -> asorted (vals s) ->
  (forall v, get_val s a = Some v -> v_jailed v = true) -> forall v', get_val s' a = Some v' -> v_jailed v' = true.
Proof. intros K S Ja v' G'. destruct (K S) as (_ & _ & F). destruct (F a v' G') as (v & G & ->). exact (Ja v G). Qed.
Lemma put_keeps s a v v1 : get_val s a = Some v -> v_jailed v1 = v_jailed v -> keeps s (put_val s a v1).
Proof.
  intros E Jv S. split; [apply aset_sorted; exact S|]. split; [reflexivity|]. intros b v'.
  unfold get_val. cbn [vals put_val set_vals]. rewrite aget_aset.
  destruct (beqb a b) eqn:B; [|intros G; exists v'; auto]. apply beqb_eq in B; subst b. intros [= <-]. exists v; auto.
Qed.

Lemma cut_keeps : cut_in keeps.
Proof.
  intros s a v sa E _ burn. set (v1 := with_tokens v (v_tokens v - burn)). intros s2.
  assert (K : keeps s s2).
  { unfold s2, reindexed, set_staked. destruct (_ || _); exact (put_keeps (del_staked s a v) a v v1 E eq_refl). }
  destruct (burn_staked s2 burn) eqn:E3; [|exact K]. bank_only (burn_staked_sets _ _ _ E3). exact K.
Qed.
Lemma force_keeps : force_in keeps.
Proof.
  intros s a v s' E F. destruct (force_unstake_inv _ _ _ _ F) as (ac & su & ->).
  exact (put_keeps s a v (with_status (with_tokens v 0) 0) E eq_refl).
Qed.
Lemma slash_keeps : slash_in keeps.
Proof. exact (walk_slash keeps keeps_refl keeps_trans cut_keeps force_keeps). Qed.

Lemma jail_t s a s' : tomb_ok s -> jail s a = Some s' ->
  tk s s' /\ sinfo s' = sinfo s /\ (forall v', get_val s' a = Some v' -> v_jailed v' = true).
Proof.
  intros H Ej. destruct (jail_inv _ _ _ Ej) as (v & E & _ & ->). split; [|split; [reflexivity|]].
  - exact (put_val_tk s a (with_jailed v true) H (or_introl eq_refl)).
  - intros v'. change (get_val (put_val s a (with_jailed v true)) a = Some v' -> v_jailed v' = true).
    rewrite get_put_val. intros [= <-]. reflexivity.
Qed.

(* a vote: slash and jail leave the signing infos alone, and the info written last keeps a's flag *)
Lemma handle_signature_tk s a p sg s' : tomb_ok s -> handle_signature s a p sg = Some s' -> tk s s'.
Proof.
  intros H E. destruct (handle_signature_inv _ _ _ _ _ E) as (si & Esi & _ & [->|(y & x & Ey & Ej & ->)]).
  - apply (same_flag_tk (set_sign s (sinfo s) _) a si); [exact H|exact Esi|reflexivity].
  - destruct (keeps_tk _ _ (slash_keeps _ _ _ _ _ _ Ey) H) as [Ty Sy].
    destruct (jail_t _ _ _ (proj1 Ty) Ej) as (Tx & Sx & _). eapply tk_trans; [exact (tk_trans _ _ _ Ty Tx)|].
    apply (same_flag_tk x a si); [apply Tx|rewrite Sx, Sy; exact Esi|reflexivity].
Qed.

(* a piece of evidence: the record is jailed once slash and jail are through, stays so through the forced unstake, and
   so is jailed when the tombstone is written *)
Lemma handle_double_sign_tk s a h t p s' : tomb_ok s -> handle_double_sign s a h t p = Some s' -> tk s s'.
Proof.
  intros H E.
  destruct (handle_double_sign_inv _ _ _ _ _ _ E) as (v & si & x & s2 & v2 & s3 & Ev & _ & _ & Ex & E2 & G2 & F3 & ->).
  pose proof (slash_keeps _ _ _ _ _ _ Ex) as Kx. destruct (keeps_tk _ _ Kx H) as [Tx _].
  assert (T2 : tk s s2 /\ forall w, get_val s2 a = Some w -> v_jailed w = true).
  { destruct (v_jailed v) eqn:Jv.
    - subst s2. split; [exact Tx|]. apply (keeps_jailed s x a Kx); [apply H|]. intros w Ew. congruence.
    - destruct (jail_t _ _ _ (proj1 Tx) E2) as (T2 & _ & J2). split; [exact (tk_trans _ _ _ Tx T2)|exact J2]. }
  destruct T2 as [T2 J2]. pose proof (force_keeps _ _ _ _ G2 F3) as K3. destruct (keeps_tk _ _ K3 (proj1 T2)) as [T3 _].
  eapply tk_trans; [exact (tk_trans _ _ _ T2 T3)|].
  apply set_sinfo_tk; [apply T3| |intros; reflexivity].
  right; right. apply (keeps_jailed s2 s3 a K3); [apply T2|exact J2].
Qed.

Lemma finish_unstaking_tk s a v s' : tomb_ok s -> finish_unstaking s a v = Some s' -> tk s s'.
Proof.
  intros H F. destruct (finish_unstaking_inv _ _ _ _ F) as (ac & su & _ & ->). exact (del_val_tk s a H).
Qed.

(* stake: refused for a tombstoned address; a new record starts unjailed, an old one keeps its flag *)
Lemma stake_tk s pk a amt : tomb_ok s -> tk s (hres_state (handle s (MStake pk a amt))).
Proof.
  intros H. pose proof (tk_refl s H) as R.
  destruct (stake_inv s pk a amt) as [->|(v0 & s1 & G & _ & Tb & _ & K)]; [exact R|].
  assert (NT : ~ tombed (sinfo s) a).
  { intros (si & E & T). rewrite (Tb si E) in T. discriminate. }
  assert (T1 : tk s s1 /\ sinfo s1 = sinfo s).
  { destruct G as [[_ ->]|(_ & _ & ->)]; [auto|]. split; [|reflexivity].
    exact (put_val_tk s a v0 H (or_intror (or_introl NT))). }
  destruct T1 as [T1 S1]. destruct K as [[_ ->]|(s2 & E & K)]; [exact T1|]. bank_only (bank_send_sets _ _ _ _ _ E).
  cbv zeta in K.
  set (v1 := with_status (with_tokens v0 (v_tokens v0 + amt)) 2) in K.
  assert (T3 : tk s (set_staked (put_val (set_bank s1 ac su) a v1) a v1)).
  { eapply tk_trans; [exact T1|]. apply set_staked_tk.
    refine (put_val_tk s1 a v1 (proj1 T1) (or_intror (or_introl _))). rewrite S1. exact NT. }
  destruct K as [[-> _]|[-> Es]]; [exact T3|]. eapply tk_trans; [exact T3|].
  apply set_sinfo_tk; [apply T3|right; left; reflexivity|].
  intros si0 E0. rewrite Es in E0. discriminate.
Qed.

(* unstake: the record keeps its flag *)
Lemma unstake_tk s a : tomb_ok s -> tk s (hres_state (handle s (MUnstake a))).
Proof.
  intros H. pose proof (tk_refl s H) as R. cbn [handle].
  destruct (get_val s a) as [v|] eqn:E; [|exact R]. destruct (negb _); [exact R|]. destruct (_ <? _); [exact R|].
  refine (put_val_tk (del_staked s a v) a _ H (or_intror (or_intror _))). exists v. split; [exact E|reflexivity].
Qed.
(* unjail: refused for a tombstoned address *)
Lemma unjail_tk s a : tomb_ok s -> tk s (hres_state (handle s (MUnjail a))).
Proof.
  intros H. destruct (unjail_inv s a) as [->|(v & si & _ & _ & _ & Es & Ts & _ & _ & ->)]; [exact (tk_refl s H)|].
  apply set_staked_tk, put_val_tk; [exact H|]. right; left. intros (si' & E' & T'). congruence.
Qed.

Theorem tomb_closed : closed (fun _ => True) (fun s s' => tomb_ok s -> tk s s').
Proof.
  pose (J := fun s s' => tomb_ok s -> tk s s').
  assert (R : forall s, J s s) by exact tk_refl.
  assert (T : forall s1 s2 s3, J s1 s2 -> J s2 s3 -> J s1 s3).
  { intros s1 s2 s3 A B H. exact (tk_trans _ _ _ (A H) (B (proj1 (A H)))). }
  destruct (bank_moves_in J) as (Send & Mint & Burn); [intros s ac su H; now apply tframe|].
  assert (Param : forall s k v raw, J s (apply_param s k v raw)).
  { intros s k v raw H. unfold apply_param. destruct v; now apply tframe. }
  constructor; try (intros; now apply tframe); auto.
  - (* c_reward *) apply (walk_reward J R T Send).
  - (* c_award *) intros s a amt _. apply (walk_mint_award J R T Send Mint).
  - (* c_slash *) intros s a h p f x E H. exact (proj1 (keeps_tk _ _ (slash_keeps _ _ _ _ _ _ E) H)).
  - (* c_vote *) intros s a p sg s' E H. exact (handle_signature_tk _ _ _ _ _ H E).
  - (* c_evidence *) intros s a h t p s' E H. exact (handle_double_sign_tk _ _ _ _ _ _ H E).
  - (* c_update *) apply (walk_update J R T). intros s p t H. now apply tframe.
  - (* c_mature *) apply (walk_mature J R T).
    + intros s a v s' _ _ E H. exact (finish_unstaking_tk _ _ _ _ H E).
    + intros s k H. now apply tframe.
  - (* c_ante *) intros t _ s s'. apply (walk_ante J R T Send).
  - (* c_handle *) intros t _ s. destruct (t_msg t) eqn:E; [apply stake_tk|apply unstake_tk|apply unjail_tk|..];
      apply (walk_handle J R T Send Burn Param); congruence.
Qed.

Theorem run_tk ops : forall s s', tomb_ok s -> run ops s = Some s' -> tk s s'.
Proof. intros s s' H E. exact (closed_run _ _ tomb_closed ops (all_ops ops) s s' E H). Qed.

(* at genesis nobody is tombstoned *)
Lemma genesis_validator_tomb s g : tomb_ok s -> (forall a, ~ tombed (sinfo s) a) ->
  tomb_ok (genesis_validator s g) /\ (forall a, ~ tombed (sinfo (genesis_validator s g)) a).
Proof.
  destruct g as [[a pk] tokens]. unfold genesis_validator. intros H NT.
  set (v := {| v_pk := pk; v_jailed := false; v_status := 2; v_tokens := tokens; v_unstime := 0 |}).
  set (s1 := set_staked (put_val s a v) a v).
  assert (T1 : tk s s1).
  { apply set_staked_tk, put_val_tk; [exact H|]. right; left. apply NT. }
  assert (NT1 : forall b, ~ tombed (sinfo s1) b).
  { intros b. unfold s1, set_staked. destruct (_ || _); apply NT. }
  set (si0 := {| si_start := 0; si_offset := 0; si_jailed_until := 0; si_tomb := false; si_missed := 0 |}).
  assert (T2 : tk s1 (set_sign s1 (aset (sinfo s1) a si0) (missed s1))).
  { apply set_sinfo_tk; [apply T1|right; left; reflexivity|]. intros si E T. exfalso. apply (NT1 a). exists si; auto. }
  split; [exact (proj1 T2)|].
  intros b (sb & Eb & Tb). cbn [sinfo set_misc set_sign] in Eb. rewrite aget_aset in Eb.
  destruct (beqb a b); [injection Eb as <-; discriminate|]. apply (NT1 b). exists sb; auto.
Qed.
Theorem init_chain_tomb s0 gvals dao s ups : tomb_ok s0 -> (forall a, ~ tombed (sinfo s0) a) ->
  init_chain s0 gvals dao = Some (s, ups) -> tomb_ok s.
Proof.
  intros H NT E. pose (G := fun x => tomb_ok x /\ forall a, ~ tombed (sinfo x) a).
  assert (K : G s0 -> G s); [|exact (proj1 (K (conj H NT)))].
  apply (walk_init_chain (fun x x' => G x -> G x')) with (6 := E); auto.
  - intros x g [Hx Nx]. exact (genesis_validator_tomb x g Hx Nx).
  - intros x m amt x' Em K. bank_only (bank_mint_sets _ _ _ _ Em). exact K.
Qed.

(* C09: once tombstoned, in every later state of every continuation: still tombstoned, and jailed if it has a record;
   with the index soundness it has no entry in the power index, so it is never offered to Tendermint *)
Lemma tk_forever s s' a : tk s s' -> tombed (sinfo s) a ->
  tombed (sinfo s') a /\ forall v, get_val s' a = Some v -> v_jailed v = true.
Proof.
  intros [O M] T. split; [apply M; exact T|]. intros v Ev. destruct O as (_ & _ & HO). apply (HO a v); auto.
Qed.
Lemma tk_never_indexed s s' a : tk s s' -> idx_sound s' -> tombed (sinfo s) a -> forall k, aget (powidx s') k <> Some a.
Proof.
  intros K I' T k Hk. destruct (tk_forever s s' a K T) as [_ J].
  destruct (indexed_is_staked_unjailed s' k a I' Hk) as (v & Ev & _ & Jv & _). rewrite (J v Ev) in Jv. discriminate.
Qed.
Theorem tombstoned_forever ops s s' a : tomb_ok s -> tombed (sinfo s) a -> run ops s = Some s' ->
  tombed (sinfo s') a /\ forall v, get_val s' a = Some v -> v_jailed v = true.
Proof. intros H T E. exact (tk_forever s s' a (run_tk ops s s' H E) T). Qed.
Theorem tombstoned_never_indexed ops s s' a : tomb_ok s -> idx_sound s -> tombed (sinfo s) a -> run ops s = Some s' ->
  forall k, aget (powidx s') k <> Some a.
Proof. intros H I T E. exact (tk_never_indexed s s' a (run_tk ops s s' H E) (run_is ops s s' I E) T). Qed.
