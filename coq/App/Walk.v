(* The call tree of the application model, walked once.

   Every history-level result of this directory says that some reflexive, transitive relation J on states contains
   every step of the model: an invariant kept (J s s' := I s -> I s'), a component left alone (J s s' := pi s' = pi s),
   a relation that holds under an invariant (J s s' := I s -> I s' /\ R s s'). First part: inversion lemmas, what each
   composite function of the model does when it succeeds. Second part ([Section Walk]): if J contains what a function
   calls, it contains the function. Third part: the record [closed Q J] lists what J must contain, function by function,
   to contain [step] and [run] for histories whose operations satisfy Q ([closed_step], [closed_run]); [leaves J] lists
   the same at the level of single writes, for relations that every single write respects ([leaves_closed]). A relation
   that only holds again after several writes (the missed-block counter across a whole vote, the tombstone across a whole
   piece of evidence) proves that field of [closed] itself, from the inversion lemma, and takes the rest from the
   second part. InitChain is not a step: the genesis lemmas of each file use [init_chain_inv] or [walk_init_chain]. *)
From Coq Require Import List ZArith NArith Bool.
From PM Require Import Base.Bytes Store.KV Store.KVProofs Num.IntModel Num.DecModel App.Model.
Import ListNotations.
Local Open Scope Z_scope.

Definition sres_state (r : sres) : option state := match r with SOk x | SErr x => Some x | SPanic => None end.
Definition hres_state (r : hres) : state := match r with HOk x | HErr x => x end.

Lemma get_put_val s a v : get_val (put_val s a v) a = Some v.
Proof. apply aget_aset_same. Qed.
Lemma set_staked_vals s a v : vals (set_staked s a v) = vals s.
Proof. unfold set_staked. destruct (_ || _); reflexivity. Qed.
(* the index is the only thing set_staked writes, and the bank moves write accounts and supply only *)
Lemma set_staked_sets s a v : exists ix, set_staked s a v = set_powidx s ix.
Proof. unfold set_staked. destruct (_ || _); [exists (powidx s); destruct s; reflexivity|eauto]. Qed.
Lemma bank_send_sets s f t a s' : bank_send s f t a = Some s' -> exists ac su, s' = set_bank s ac su.
Proof. unfold bank_send. destruct (_ || _); [discriminate|]. intros [= <-]. eauto. Qed.
Lemma bank_mint_sets s m a s' : bank_mint s m a = Some s' -> exists ac su, s' = set_bank s ac su.
Proof. unfold bank_mint. destruct (_ <? _); [discriminate|]. intros [= <-]. eauto. Qed.
Lemma bank_burn_sets s m a s' : bank_burn s m a = Some s' -> exists ac su, s' = set_bank s ac su.
Proof. unfold bank_burn. destruct (_ || _); [discriminate|]. intros [= <-]. eauto. Qed.
Lemma burn_staked_sets s amt s' : burn_staked s amt = Some s' -> exists ac su, s' = set_bank s ac su.
Proof. unfold burn_staked. destruct (amt <=? 0); [discriminate|]. apply bank_burn_sets. Qed.

(* after [bank_only (bank_send_sets _ _ _ _ _ E)] the new state reads [set_bank s ac su]: whatever does not mention
   accounts or supply is then the same by conversion *)
Ltac bank_only E := let ac := fresh "ac" in let su := fresh "su" in destruct E as (ac & su & ->).

(* a relation that contains every write of accounts and supply contains the three bank moves *)
Lemma bank_moves_in (J : state -> state -> Prop) : (forall s ac su, J s (set_bank s ac su)) ->
  (forall s f t amt s', bank_send s f t amt = Some s' -> J s s') /\
  (forall s m amt s', bank_mint s m amt = Some s' -> J s s') /\
  (forall s m amt s', bank_burn s m amt = Some s' -> J s s').
Proof.
  intros H. split; [|split]; intros until s'; intros E.
  - bank_only (bank_send_sets _ _ _ _ _ E). apply H.
  - bank_only (bank_mint_sets _ _ _ _ E). apply H.
  - bank_only (bank_burn_sets _ _ _ _ E). apply H.
Qed.

(* the first two writes of a forced unstake touch the index and the queue only *)
Lemma unqueued_sets s a v :
  (if (v_status v =? 1)%N then del_unstaking (del_staked s a v) a v else del_staked s a v) =
  set_unstq (del_staked s a v) (if (v_status v =? 1)%N then unstq (del_unstaking s a v) else unstq s).
Proof. destruct (v_status v =? 1)%N; reflexivity. Qed.
(* a forced unstake: rank key and queue entry dropped, what is left burnt from the pool, the record emptied *)
Lemma force_unstake_inv s a v s' : force_unstake s a v = Some s' ->
  exists ac su, s' = put_val (set_bank (set_unstq (del_staked s a v)
      (if (v_status v =? 1)%N then unstq (del_unstaking s a v) else unstq s)) ac su)
    a (with_status (with_tokens v 0) 0).
Proof.
  unfold force_unstake. rewrite unqueued_sets. destruct (0 <? v_tokens v).
  - destruct (burn_staked _ _) as [s2|] eqn:E2; [|discriminate]. intros [= <-].
    bank_only (burn_staked_sets _ _ _ E2). eauto.
  - intros [= <-]. exists (accts s), (supply s). reflexivity.
Qed.
(* jail: the record flagged, its rank key dropped *)
Lemma jail_inv s a s' : jail s a = Some s' ->
  exists v, get_val s a = Some v /\ v_jailed v = false /\
    s' = del_staked (put_val s a (with_jailed v true)) a (with_jailed v true).
Proof.
  unfold jail. destruct (get_val s a) as [v|]; [|discriminate]. destruct (v_jailed v) eqn:J; [discriminate|].
  intros [= <-]. eauto.
Qed.

(* slash: nothing, or the record rewritten with [burn] tokens fewer and re-indexed, then [burn] burnt from the
   pool (unless it is 0), then possibly the forced unstake of what is left *)
Definition reindexed (s : state) (a : bytes) (v v1 : validator) : state :=
  set_staked (put_val (del_staked s a v) a v1) a v1.
Lemma slash_inv s a h p f x : sres_state (slash s a h p f) = Some x ->
  x = s \/
  exists v sa, get_val s a = Some v /\ (v_status v =? 0)%N = false /\
    let burn := Z.max (Z.min sa (v_tokens v)) 0 in
    let v1 := with_tokens v (v_tokens v - burn) in
    match burn_staked (reindexed s a v v1) burn with
    | None => x = reindexed s a v v1
    | Some s3 => get_val s3 a = Some v1 /\ (x = s3 \/ force_unstake s3 a v1 = Some x)
    end.
Proof.
  unfold slash. destruct (f <? 0); [intros [= <-]; auto|]. destruct (height s <? h); [intros [= <-]; auto|].
  destruct (get_val s a) as [v|] eqn:E; [|intros [= <-]; auto].
  destruct (v_status v =? 0)%N eqn:St; [intros [= <-]; auto|].
  destruct (tokens_from_power p) as [amount|]; [|discriminate].
  destruct (dec_mul (dec_from_int amount) f) as [d|]; [|discriminate].
  destruct (dec_truncate_int d) as [sa|]; [|discriminate].
  intros H. right. exists v, sa. split; [reflexivity|]. split; [exact St|]. cbv zeta.
  set (burn := Z.max (Z.min sa (v_tokens v)) 0) in *. set (v1 := with_tokens v (v_tokens v - burn)) in *.
  change (set_staked (put_val (del_staked s a v) a v1) a v1) with (reindexed s a v v1) in H.
  destruct (burn_staked (reindexed s a v v1) burn) as [s3|] eqn:E3; [|injection H as <-; reflexivity].
  split.
  - bank_only (burn_staked_sets _ _ _ E3). unfold get_val, reindexed. cbn [vals set_bank].
    rewrite set_staked_vals. apply get_put_val.
  - destruct (_ <? p_min_stake (pp s3)); [|injection H as <-; auto].
    destruct (force_unstake s3 a v1) as [s4|]; injection H as <-; auto.
Qed.

(* a vote: first the bit at the ring position and the counter ... *)
Definition ring_update (m : amap bool) (a : bytes) (si : signinfo) (w : Z) (sg : bool) : amap bool * Z :=
  let index := Z.rem (si_offset si) w in
  let previous := match aget m (missed_key a index) with Some b => b | None => false end in
  let missd := negb sg in
  if negb previous && missd then (aset m (missed_key a index) true, si_missed si + 1)
  else if previous && negb missd then (aset m (missed_key a index) false, si_missed si - 1)
  else (m, si_missed si).
(* ... then the signing info with the offset moved on; or, past the threshold and not jailed yet: slash, jail, and the
   signing info with ring and counter cleared *)
Lemma handle_signature_inv s a p sg s' : handle_signature s a p sg = Some s' ->
  exists si, aget (sinfo s) a = Some si /\ 0 < p_window (pp s) /\
    let mc := ring_update (missed s) a si (p_window (pp s)) sg in
    let s1 := set_sign s (sinfo s) (fst mc) in
    s' = set_sign s1 (aset (sinfo s1) a {| si_start := si_start si; si_offset := si_offset si + 1;
                                           si_jailed_until := si_jailed_until si; si_tomb := si_tomb si;
                                           si_missed := snd mc |}) (fst mc) \/
    exists y x, sres_state (slash s1 a (height s - 2) p (p_slash_dt (pp s))) = Some y /\ jail y a = Some x /\
      s' = set_sign x (aset (sinfo x) a {| si_start := si_start si; si_offset := 0;
                                           si_jailed_until := btime s + p_downtime_jail (pp s); si_tomb := si_tomb si;
                                           si_missed := 0 |})
             (filter (fun q => negb (has_prefix a (fst q) && Nat.eqb (length (fst q)) (length a + 8))) (missed x)).
Proof.
  unfold handle_signature. destruct (aget (pkrel s) a); [|discriminate].
  destruct (aget (sinfo s) a) as [si|]; [|discriminate]. destruct (Z.leb_spec (p_window (pp s)) 0); [discriminate|].
  intros E. exists si. split; [reflexivity|]. split; [assumption|]. revert E. cbv zeta. unfold ring_update.
  match goal with |- context[let '(mi, ctr) := ?X in _] => destruct X as [mi ctr] end. cbn [fst snd].
  destruct (_ && _); [|intros [= <-]; left; reflexivity].
  destruct (get_val _ a) as [v|]; [|intros [= <-]; left; reflexivity].
  destruct (v_jailed v); [intros [= <-]; left; reflexivity|]. intros E. right.
  destruct (slash _ a (height s - 2) p (p_slash_dt (pp s))) as [y|y|]; try discriminate; cbv beta iota in E;
    (destruct (jail y a) as [x|] eqn:Ej; [|discriminate]); injection E as <-; exists y, x; auto.
Qed.

(* a piece of evidence: slash, jail unless jailed already, forced unstake, tombstone *)
Lemma handle_double_sign_inv s a h t p s' : handle_double_sign s a h t p = Some s' ->
  exists v si x s2 v2 s3, get_val s a = Some v /\ aget (sinfo s) a = Some si /\ si_tomb si = false /\
    sres_state (slash s a (h - 1) p (p_slash_ds (pp s))) = Some x /\
    (if v_jailed v then s2 = x else jail x a = Some s2) /\
    get_val s2 a = Some v2 /\ force_unstake s2 a v2 = Some s3 /\
    s' = set_sign s3 (aset (sinfo s3) a {| si_start := si_start si; si_offset := si_offset si;
                                           si_jailed_until := double_sign_jail_end; si_tomb := true;
                                           si_missed := si_missed si |}) (missed s3).
Proof.
  unfold handle_double_sign. destruct (aget (pkrel s) a); [|discriminate]. destruct (_ <? _); [discriminate|].
  destruct (get_val s a) as [v|]; [|discriminate]. destruct (v_status v =? 0)%N; [discriminate|].
  destruct (aget (sinfo s) a) as [si|]; [|discriminate]. destruct (si_tomb si) eqn:T; [discriminate|].
  intros H. exists v, si.
  destruct (slash s a (h - 1) p (p_slash_ds (pp s))) as [x|x|]; try discriminate; exists x; cbv beta iota in H.
  all: destruct (if v_jailed v then Some x else jail x a) as [s2|] eqn:E2; [|discriminate]; exists s2.
  all: destruct (get_val s2 a) as [v2|]; [|discriminate]; exists v2.
  all: destruct (force_unstake s2 a v2) as [s3|]; [|discriminate]; exists s3; injection H as <-.
  all: split; [reflexivity|]; split; [reflexivity|]; split; [exact T|]; split; [reflexivity|]; split; [|auto].
  all: destruct (v_jailed v); [injection E2 as <-; reflexivity|exact E2].
Qed.

(* maturity: the queue entry dropped, the stake sent from the pool to its owner, the record deleted *)
Lemma finish_unstaking_inv s a v s' : finish_unstaking s a v = Some s' ->
  exists ac su,
    bank_send (del_unstaking s a v) (m_pool (ma s)) a (v_tokens v) = Some (set_bank (del_unstaking s a v) ac su) /\
    s' = set_vals (set_bank (del_unstaking s a v) ac su) (adel (vals s) a).
Proof.
  unfold finish_unstaking. destruct (negb _); [discriminate|].
  destruct (bank_send _ _ a (v_tokens v)) as [s2|] eqn:E; [|discriminate]. intros [= <-].
  bank_only (bank_send_sets _ _ _ _ _ E). eauto.
Qed.
(* a stake message: refused untouched, or: the record (a fresh one is registered if there is none) is unstaked and not
   tombstoned, the amount in bounds; it goes to the pool, the record is written staked and indexed, a signing info is
   started if there is none *)
Lemma stake_inv s pk a amt :
  handle s (MStake pk a amt) = HErr s \/
  exists v0 s1,
    (get_val s a = Some v0 /\ s1 = s \/
     get_val s a = None /\ v0 = {| v_pk := pk; v_jailed := false; v_status := 0; v_tokens := 0; v_unstime := 0 |} /\
       s1 = set_misc (put_val s a v0) (proposer s) (aset (pkrel s) a pk)) /\
    v_status v0 = 0%N /\ (forall si, aget (sinfo s) a = Some si -> si_tomb si = false) /\
    p_min_stake (pp s) <= amt <= bal s a /\
    (bank_send s1 a (m_pool (ma s1)) amt = None /\ handle s (MStake pk a amt) = HErr s1 \/
     exists s2, bank_send s1 a (m_pool (ma s1)) amt = Some s2 /\
       let v1 := with_status (with_tokens v0 (v_tokens v0 + amt)) 2 in
       let s3 := set_staked (put_val s2 a v1) a v1 in
       (handle s (MStake pk a amt) = HOk s3 /\ aget (sinfo s3) a <> None \/
        handle s (MStake pk a amt) = HOk (set_sign s3 (aset (sinfo s3) a {| si_start := height s3; si_offset := 0;
          si_jailed_until := 0; si_tomb := false; si_missed := 0 |}) (missed s3)) /\ aget (sinfo s3) a = None)).
Proof.
  cbn [handle]. set (v0 := match get_val s a with Some v => v | None => _ end).
  destruct (v_status v0 =? 0)%N eqn:St0; cbn [negb]; [|left; reflexivity]. apply N.eqb_eq in St0.
  destruct (match aget (sinfo s) a with Some si => si_tomb si | None => false end) eqn:Tb; [left; reflexivity|].
  destruct (Z.ltb_spec amt (p_min_stake (pp s))); [left; reflexivity|].
  destruct (Z.ltb_spec (bal s a) amt); [left; reflexivity|].
  set (s1 := match get_val s a with Some _ => s | None => _ end). right. exists v0, s1.
  split; [unfold v0, s1; destruct (get_val s a); [left|right]; auto|]. split; [exact St0|].
  split; [intros si Es; rewrite Es in Tb; exact Tb|]. split; [auto|].
  destruct (bank_send s1 a _ amt) as [s2|]; [right|left; split; reflexivity]. exists s2. split; [reflexivity|].
  cbv zeta.
  destruct (aget (sinfo (set_staked _ _ _)) a); [left|right]; (split; [reflexivity|congruence]).
Qed.

(* an unjail message: refused untouched, or the jailed record, jail time over and no tombstone, is written unjailed and
   indexed *)
Lemma unjail_inv s a :
  handle s (MUnjail a) = HErr s \/
  exists v si, get_val s a = Some v /\ v_jailed v = true /\ p_min_stake (pp s) <= v_tokens v /\
    aget (sinfo s) a = Some si /\ si_tomb si = false /\ si_jailed_until si <= btime s /\
    unjail s a = Some (set_staked (put_val s a (with_jailed v false)) a (with_jailed v false)) /\
    handle s (MUnjail a) = HOk (set_staked (put_val s a (with_jailed v false)) a (with_jailed v false)).
Proof.
  cbn [handle]. unfold unjail. destruct (get_val s a) as [v|]; [|left; reflexivity].
  destruct (Z.ltb_spec (v_tokens v) (p_min_stake (pp s))); [left; reflexivity|].
  destruct (v_jailed v) eqn:Jv; cbn [negb]; [|left; reflexivity].
  destruct (aget (sinfo s) a) as [si|]; [|left; reflexivity]. destruct (si_tomb si) eqn:T; [left; reflexivity|].
  destruct (Z.ltb_spec (btime s) (si_jailed_until si)); [left; reflexivity|].
  right. exists v, si. repeat split; auto.
Qed.

(* what is left of ante when it accepts: the fee, from the signer to the fee collector *)
Lemma ante_inv s t s' : ante s t = Some s' -> bank_send s (msg_signer (t_msg t)) (m_fee (ma s)) (t_fee t) = Some s'.
Proof.
  unfold ante. destruct (_ <? _); [discriminate|].
  match goal with |- context[match ?X with Some ka => _ | None => None end] => destruct X as [ka|] end; [|discriminate].
  destruct (negb _); [discriminate|]. destruct (t_in_index t); [discriminate|]. destruct (_ <? _); [discriminate|].
  destruct (_ && _); [discriminate|]. destruct (_ || _); [discriminate|].
  destruct (aget (accts s) _) as [b|]; [|discriminate]. destruct (b <? t_fee t); [discriminate|]. auto.
Qed.
Lemma init_chain_inv s0 gvals dao s ups : init_chain s0 gvals dao = Some (s, ups) ->
  exists s2, update_tm_validators (fold_left genesis_validator gvals s0) = Some (s2, ups) /\
    (s = s2 \/ bank_mint s2 (m_dao (ma s2)) dao = Some s).
Proof.
  unfold init_chain. destruct (update_tm_validators _) as [[s2 u]|]; [|discriminate].
  destruct (bank_mint s2 _ dao) as [s3|] eqn:E; intros [= <- <-]; exists s2; auto.
Qed.

Lemma awards_mint_award s a amt : awards (mint_award s a amt) = awards s.
Proof.
  unfold mint_award, bank_mint, bank_send. destruct (amt <? 0); [reflexivity|]. cbn [ma set_bank].
  destruct (_ || _); reflexivity.
Qed.

(* If J contains what a function calls, it contains the function. Outside [Section Begin] every lemma takes J, its
   reflexivity and its transitivity in this order, used or not ([Proof using All]), so that all are called alike:
   walk_x J R T ... *)
Section Walk.
Variable J : state -> state -> Prop.
Hypothesis J_refl : forall s, J s s.
Hypothesis J_trans : forall s1 s2 s3, J s1 s2 -> J s2 s3 -> J s1 s3.

Lemma walk_fold_opt {A} (f : state -> A -> option state) :
  (forall s x s', f s x = Some s' -> J s s') -> forall l s s', fold_opt f l s = Some s' -> J s s'.
Proof using All.
  intros Hf. induction l as [|x l IH]; simpl; intros s s'; [intros [= <-]; apply J_refl|].
  destruct (f s x) as [s1|] eqn:E; [|discriminate]. intros E'. eapply J_trans; [eapply Hf; exact E|apply IH; exact E'].
Qed.

(* [x_in]: J contains every successful call of x (cut: the first half of slash, the record rewritten and re-indexed and
   the tokens burnt; force: force_unstake, its second half; sign: set_sign; send: bank_send) *)
Definition cut_in : Prop := forall s a v sa, get_val s a = Some v -> (v_status v =? 0)%N = false ->
  let burn := Z.max (Z.min sa (v_tokens v)) 0 in
  let s2 := reindexed s a v (with_tokens v (v_tokens v - burn)) in
  match burn_staked s2 burn with Some s3 => J s s3 | None => J s s2 end.
Definition force_in : Prop := forall s a v s', get_val s a = Some v -> force_unstake s a v = Some s' -> J s s'.
Definition slash_in : Prop := forall s a h p f x, sres_state (slash s a h p f) = Some x -> J s x.
Definition jail_in : Prop := forall s a s', jail s a = Some s' -> J s s'.
Definition sign_in : Prop := forall s si mi, J s (set_sign s si mi).
Definition send_in : Prop := forall s f t amt s', bank_send s f t amt = Some s' -> J s s'.

Lemma walk_slash : cut_in -> force_in -> slash_in.
Proof using All.
  intros Hc Hf s a h p f x E. destruct (slash_inv _ _ _ _ _ _ E) as [->|(v & sa & Ev & St & K)]; [apply J_refl|].
  specialize (Hc s a v sa Ev St). cbv zeta in *. destruct (burn_staked _ _) as [s3|]; [|subst x; exact Hc].
  destruct K as [G [->|F]]; [exact Hc|]. eapply J_trans; [exact Hc|]. eapply Hf; eauto.
Qed.
Lemma walk_vote : slash_in -> jail_in -> sign_in -> forall s a p sg s', handle_signature s a p sg = Some s' -> J s s'.
Proof using All.
  intros Hs Hj Hg s a p sg s' E. destruct (handle_signature_inv _ _ _ _ _ E) as (si & _ & _ & [->|(y & x & Ey & Ej & ->)]).
  - eapply J_trans; apply Hg.
  - eapply J_trans; [apply Hg|]. eapply J_trans; [eapply Hs; exact Ey|]. eapply J_trans; [eapply Hj; exact Ej|apply Hg].
Qed.
Lemma walk_evidence : slash_in -> jail_in -> force_in -> sign_in ->
  forall s a h t p s', handle_double_sign s a h t p = Some s' -> J s s'.
Proof using All.
  intros Hs Hj Hf Hg s a h t p s' E.
  destruct (handle_double_sign_inv _ _ _ _ _ _ E) as (v & si & x & s2 & v2 & s3 & _ & _ & _ & Ex & E2 & G2 & F3 & ->).
  eapply J_trans; [eapply Hs; exact Ex|]. eapply J_trans; [|eapply J_trans; [eapply Hf; eauto|apply Hg]].
  destruct (v_jailed v); [subst s2; apply J_refl|eapply Hj; exact E2].
Qed.
Lemma walk_reward : send_in -> forall s p s', reward_from_fees s p = Some s' -> J s s'.
Proof using All.
  intros Hb s p s'. unfold reward_from_fees. destruct (bank_send s _ _ _) as [s1|] eqn:E1; [|discriminate].
  destruct (get_val s1 p); [|intros [= <-]; eapply Hb; exact E1].
  intros E2. eapply J_trans; eapply Hb; eauto.
Qed.
Lemma walk_mint_award : send_in -> (forall s m amt s', bank_mint s m amt = Some s' -> J s s') ->
  forall s a amt, J s (mint_award s a amt).
Proof using All.
  intros Hb Hm s a amt. unfold mint_award. destruct (bank_mint s _ amt) as [s1|] eqn:E1; [|apply J_refl].
  destruct (bank_send s1 _ a amt) as [s2|] eqn:E2; [eapply J_trans; [eapply Hm|eapply Hb]; eauto|eapply Hm; eauto].
Qed.
Lemma walk_update : (forall s p t, J s (set_prev s p t)) ->
  forall s s' ups, update_tm_validators s = Some (s', ups) -> J s s'.
Proof using All.
  intros Hp.
  assert (L : forall idx n s prev total acc s' prev' total' acc',
    upd_loop idx n s prev total acc = Some (s', prev', total', acc') -> J s s').
  { induction idx as [|[k a] r IH]; intros n s prev total acc s' prev' total' acc'.
    - destruct n; simpl; intros [= <- _ _ _]; apply J_refl.
    - destruct n; simpl; [intros [= <- _ _ _]; apply J_refl|].
      destruct (get_val s a) as [v|]; [|discriminate]. destruct (v_jailed v); [discriminate|].
      destruct (power_of (v_tokens v) =? 0); [discriminate|].
      match goal with |- context[let '(s1, acc1) := ?X in _] => destruct X as [s1 acc1] eqn:EX end.
      intros E. eapply J_trans; [|eapply IH; exact E].
      destruct (aget prev a) as [p|]; [destruct (p =? _)|]; injection EX as <- _; auto. }
  intros s s' ups. unfold update_tm_validators.
  destruct (upd_loop _ _ s (prevpow s) 0 []) as [[[[s1 leftover] total] acc]|] eqn:E; [|discriminate].
  destruct (fold_opt _ leftover s1) as [s2|] eqn:E2; [|discriminate]. intros [= <- _].
  eapply J_trans; [eapply L; exact E|]. eapply J_trans; [|destruct (rev acc ++ _); auto].
  revert E2. apply walk_fold_opt. intros st p st'. destruct (get_val st (fst p)); [|discriminate]. intros [= <-]. apply Hp.
Qed.
Lemma walk_mature :
  (forall s a v s', get_val s a = Some v -> v_status v = 1%N -> finish_unstaking s a v = Some s' -> J s s') ->
  (forall s k, J s (set_unstq s (adel (unstq s) k))) -> forall s s', unstake_mature s = Some s' -> J s s'.
Proof using All.
  intros Hf Hk s s'. unfold unstake_mature. apply walk_fold_opt. intros st p st'.
  destruct (fold_opt unstake_one (snd p) st) as [st1|] eqn:E; [|discriminate]. intros [= <-].
  eapply J_trans; [|apply Hk]. revert E. apply walk_fold_opt. intros x a x'. unfold unstake_one.
  destruct (get_val x a) as [v|] eqn:Ev; [|intros [= <-]; apply J_refl].
  destruct (v_status v =? 1)%N eqn:St; cbn [negb]; [|intros [= <-]; apply J_refl]. apply Hf; auto. apply N.eqb_eq; exact St.
Qed.
(* the messages that only move coins or set parameters *)
Lemma walk_handle : send_in -> (forall s m amt s', bank_burn s m amt = Some s' -> J s s') ->
  (forall s k v raw, J s (apply_param s k v raw)) ->
  forall s m, (forall pk a amt, m <> MStake pk a amt) -> (forall a, m <> MUnstake a) -> (forall a, m <> MUnjail a) ->
  J s (hres_state (handle s m)).
Proof using All.
  intros Hb Hu Hp s m N1 N2 N3. destruct m as [pk a amt|a|a|f t amt|f key v raw wf|f t amt act|f h raw]; cbn [handle].
  - destruct (N1 pk a amt eq_refl).
  - destruct (N2 a eq_refl).
  - destruct (N3 a eq_refl).
  - destruct (bank_send s f t amt) as [s1|] eqn:E; [eapply Hb; exact E|apply J_refl].
  - destruct (negb _); [apply J_refl|]. destruct wf; [apply Hp|apply J_refl].
  - destruct (negb _); [apply J_refl|]. destruct (act =? 1)%N.
    + destruct (bank_send s _ t amt) as [s1|] eqn:E; [eapply Hb; exact E|apply J_refl].
    + destruct (act =? 2)%N; [|apply J_refl]. destruct (bank_burn s _ amt) as [s1|] eqn:E; [eapply Hu; exact E|apply J_refl].
  - destruct (negb _); [apply J_refl|]. apply Hp.
Qed.
Lemma walk_ante : send_in -> forall s t s', ante s t = Some s' -> J s s'.
Proof using All. intros Hb s t s' E. exact (Hb _ _ _ _ _ (ante_inv _ _ _ E)). Qed.
(* BeginBlock, from the nine things it does *)
Section Begin.
Variables h t : Z.
Hypothesis J_block : forall s, J s (set_block s h t).
Hypothesis J_reward : forall s p s', reward_from_fees s p = Some s' -> J s s'.
Hypothesis J_award : forall s a amt, In (a, amt) (awards s) -> J s (mint_award s a amt).
Hypothesis J_awards_paid : forall s, J s (set_queues s [] (burns s)).
Hypothesis J_slash : slash_in.
Hypothesis J_burn_done : forall s a, J s (set_queues s (awards s) (adel (burns s) a)).
Hypothesis J_proposer : forall s p, J s (set_misc s (Some p) (pkrel s)).
Hypothesis J_vote : forall s a p sg s', handle_signature s a p sg = Some s' -> J s s'.
Hypothesis J_evidence : forall s a h t p s', handle_double_sign s a h t p = Some s' -> J s s'.

Lemma walk_mint_awards s : J s (mint_awards s).
Proof using J_refl J_trans J_award J_awards_paid.
  unfold mint_awards. eapply J_trans; [|apply J_awards_paid].
  assert (G : forall l st, awards st = awards s -> incl l (awards s) ->
            J st (fold_left (fun st p => mint_award st (fst p) (snd p)) l st)).
  { induction l as [|[a amt] l IH]; cbn [fold_left fst snd]; intros st Ea I; [apply J_refl|].
    eapply J_trans; [apply J_award; rewrite Ea; apply I; left; reflexivity|].
    apply IH; [rewrite awards_mint_award; exact Ea|intros x Hx; apply I; right; exact Hx]. }
  apply G; [reflexivity|apply incl_refl].
Qed.
Lemma walk_burn_validators_loop l : forall s s', burn_validators_loop l s = Some s' -> J s s'.
Proof using J_refl J_trans J_slash J_burn_done.
  induction l as [|[a sev] r IH]; simpl; intros s s'; [intros [= <-]; apply J_refl|].
  destruct (get_val s a) as [v|]; [|discriminate].
  destruct (slash s a _ _ sev) as [x|x|] eqn:Es; try discriminate; intros E;
    (eapply J_trans; [eapply J_slash; rewrite Es; reflexivity|]);
    (eapply J_trans; [apply J_burn_done|apply IH; exact E]).
Qed.
Theorem walk_begin_block s prop votes evs s' : begin_block s h t prop votes evs = Some s' -> J s s'.
Proof using All.
  unfold begin_block. set (s0 := set_block s h t).
  destruct (if 1 <? h then match proposer s0 with None => None | Some p => reward_from_fees s0 p end else Some s0)
    as [s1|] eqn:E1; [|discriminate].
  assert (J1 : J s s1).
  { apply (J_trans _ s0); [apply J_block|]. destruct (1 <? h); [|injection E1 as <-; apply J_refl].
    destruct (proposer s0); [|discriminate]. eapply J_reward; exact E1. }
  destruct (burn_validators_loop _ (mint_awards s1)) as [s3|] eqn:E3; [|discriminate].
  destruct (fold_opt _ votes _) as [s5|] eqn:E5; [|discriminate]. intros E6.
  apply (J_trans _ s1 _ J1), (J_trans _ _ _ (walk_mint_awards s1)), (J_trans _ _ _ (walk_burn_validators_loop _ _ _ E3)),
    (J_trans _ _ _ (J_proposer s3 prop)), (J_trans _ s5).
  - revert E5. apply walk_fold_opt. intros st v st'. apply J_vote.
  - revert E6. apply walk_fold_opt. intros st e st'. apply J_evidence.
Qed.
End Begin.
Lemma walk_init_chain : (forall s g, J s (genesis_validator s g)) -> (forall s p t, J s (set_prev s p t)) ->
  (forall s m amt s', bank_mint s m amt = Some s' -> J s s') ->
  forall s0 gvals dao s ups, init_chain s0 gvals dao = Some (s, ups) -> J s0 s.
Proof using All.
  intros Hg Hp Hm s0 gvals dao s ups E. destruct (init_chain_inv _ _ _ _ _ E) as (s2 & E2 & K).
  apply (J_trans _ (fold_left genesis_validator gvals s0)).
  - clear E E2. revert s0. induction gvals as [|g r IH]; intros s0; [apply J_refl|]. eapply J_trans; [apply Hg|apply IH].
  - eapply J_trans; [eapply walk_update; eauto|]. destruct K as [->|K]; [apply J_refl|eapply Hm; exact K].
Qed.
End Walk.

(* what J must contain to contain every step of every history whose operations satisfy Q. Q reaches the operations whose
   arguments an invariant may have to restrict: the block header (for an invariant that reads height or btime), the
   transactions and the keeper calls. The fields follow the model's functions; where a function is a loop the field is
   its body (c_award, c_burn_done), and c_slash serves the burn loop (votes and evidence have fields of their own) *)
Record closed (Q : op -> Prop) (J : state -> state -> Prop) : Prop := {
  c_refl : forall s, J s s;
  c_trans : forall s1 s2 s3, J s1 s2 -> J s2 s3 -> J s1 s3;
  (* BeginBlock *)
  c_block : forall h t p vs es, Q (OBegin h t p vs es) -> forall s, J s (set_block s h t);
  c_reward : forall s p s', reward_from_fees s p = Some s' -> J s s';
  c_award : forall s a amt, In (a, amt) (awards s) -> J s (mint_award s a amt);   (* In: for "the pool is owed no award" *)
  c_awards_paid : forall s, J s (set_queues s [] (burns s));
  c_slash : slash_in J;
  c_burn_done : forall s a, J s (set_queues s (awards s) (adel (burns s) a));
  c_proposer : forall s p, J s (set_misc s (Some p) (pkrel s));
  c_vote : forall s a p sg s', handle_signature s a p sg = Some s' -> J s s';
  c_evidence : forall s a h t p s', handle_double_sign s a h t p = Some s' -> J s s';
  (* EndBlock *)
  c_update : forall s s' ups, update_tm_validators s = Some (s', ups) -> J s s';
  c_mature : forall s s', unstake_mature s = Some s' -> J s s';
  (* transactions, and the two keeper entry points other modules call between them *)
  c_ante : forall t, Q (OTx t) -> forall s s', ante s t = Some s' -> J s s';
  c_handle : forall t, Q (OTx t) -> forall s, J s (hres_state (handle s (t_msg t)));
  c_k_award : forall a amt, Q (OAward a amt) -> forall s, J s (k_award s a amt);
  c_k_burn : forall a sev, Q (OBurn a sev) -> forall s, J s (k_burn s a sev) }.

Section Closed.
Variables (Q : op -> Prop) (J : state -> state -> Prop).
Hypothesis C : closed Q J.
Let Jt := c_trans Q J C.
Let Jr := c_refl Q J C.

Lemma closed_mint_awards s : J s (mint_awards s).
Proof. apply (walk_mint_awards J Jr Jt); apply C. Qed.
Theorem closed_begin_block s h t prop votes evs s' : Q (OBegin h t prop votes evs) ->
  begin_block s h t prop votes evs = Some s' -> J s s'.
Proof. intros K. apply (walk_begin_block J Jr Jt); try apply C. exact (c_block Q J C h t prop votes evs K). Qed.
Theorem closed_end_block s s' ups : end_block s = Some (s', ups) -> J s s'.
Proof.
  unfold end_block. destruct (update_tm_validators s) as [[s1 u]|] eqn:E; [|discriminate].
  destruct (unstake_mature s1) as [s2|] eqn:E2; [|discriminate]. intros [= <- _].
  eapply Jt; [eapply (c_update Q J C); exact E|eapply (c_mature Q J C); exact E2].
Qed.
Theorem closed_deliver_tx s t : Q (OTx t) -> J s (dres_state (deliver_tx s t)).
Proof.
  intros K. unfold deliver_tx. destruct (_ || _); [apply Jr|].
  destruct (ante s t) as [s1|] eqn:E; [|apply Jr].
  apply (Jt _ s1); [eapply (c_ante Q J C); eauto|]. pose proof (c_handle Q J C t K s1) as H.
  destruct (handle s1 (t_msg t)); exact H.
Qed.
Theorem closed_step s o s' : Q o -> step s o = Some s' -> J s s'.
Proof.
  intros K. destruct o as [h t p vs es|t|a amt|a sev| |]; cbn [step].
  - apply closed_begin_block, K.
  - intros [= <-]. apply closed_deliver_tx, K.
  - intros [= <-]. apply (c_k_award Q J C), K.
  - intros [= <-]. apply (c_k_burn Q J C), K.
  - destruct (end_block s) as [[s1 u]|] eqn:E; [|discriminate]. intros [= <-]. eapply closed_end_block; exact E.
  - intros [= <-]. apply Jr.
Qed.
Theorem closed_run ops : Forall Q ops -> forall s s', run ops s = Some s' -> J s s'.
Proof.
  unfold run. induction 1 as [|o r K F IH]; simpl; intros s s'; [intros [= <-]; apply Jr|].
  destruct (step s o) as [s1|] eqn:E; [|discriminate]. intros E'. eapply Jt; [eapply closed_step; eauto|apply IH; exact E'].
Qed.
End Closed.
(* for relations that ask nothing of the operations: Q := fun _ => True *)
Lemma all_ops (ops : list op) : Forall (fun _ => True) ops.
Proof. induction ops; auto. Qed.

(* the same at the leaves of the call tree, for a relation that every single write of the model respects: the setters the
   block cycle calls outside the record-keeping of validators, the three bank moves wherever they occur, and the seven
   places where a validator's record, the index and the unstaking queue change together *)
Record leaves (J : state -> state -> Prop) : Prop := {
  l_refl : forall s, J s s;
  l_trans : forall s1 s2 s3, J s1 s2 -> J s2 s3 -> J s1 s3;
  l_block : forall s h t, J s (set_block s h t);
  l_queues : forall s aw bu, J s (set_queues s aw bu);
  l_misc : forall s p k, J s (set_misc s p k);
  l_sign : sign_in J;
  l_prev : forall s p t, J s (set_prev s p t);
  l_params : forall s k v raw, J s (apply_param s k v raw);
  l_slot : forall s k, J s (set_unstq s (adel (unstq s) k));
  l_send : send_in J;
  l_mint : forall s m amt s', bank_mint s m amt = Some s' -> J s s';
  l_burn : forall s m amt s', bank_burn s m amt = Some s' -> J s s';
  l_cut : cut_in J;
  l_force : force_in J;
  l_jail : jail_in J;
  l_finish : forall s a v s', get_val s a = Some v -> v_status v = 1%N -> finish_unstaking s a v = Some s' -> J s s';
  l_stake : forall s pk a amt, J s (hres_state (handle s (MStake pk a amt)));
  l_unstake : forall s a, J s (hres_state (handle s (MUnstake a)));
  l_unjail : forall s a, J s (hres_state (handle s (MUnjail a))) }.

Theorem leaves_closed J : leaves J -> closed (fun _ => True) J.
Proof.
  intros L. pose proof (l_refl J L) as R. pose proof (l_trans J L) as T.
  pose proof (walk_slash J R T (l_cut J L) (l_force J L)) as S.
  constructor; auto; try (intros; apply L).
  - (* c_reward *) apply (walk_reward J R T), L.
  - (* c_award *) intros s a amt _. apply (walk_mint_award J R T); apply L.
  - (* c_vote *) apply (walk_vote J R T S); apply L.
  - (* c_evidence *) apply (walk_evidence J R T S); apply L.
  - (* c_update *) apply (walk_update J R T), L.
  - (* c_mature *) apply (walk_mature J R T); apply L.
  - (* c_ante *) intros t _ s s'. apply (walk_ante J R T), L.
  - (* c_handle *) intros t _ s. destruct (t_msg t) eqn:E; try apply L; apply (walk_handle J R T); try apply L; congruence.
Qed.
