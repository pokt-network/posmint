(* C04, the other half: in histories in which nobody sends coins to the pool's own address (no send / DAO transfer /
   award names it as the recipient) the staked pool holds EXACTLY the sum of the stake recorded for the validators
   that are staked or unstaking - not a token more. PoolProofs has "at least"; here "at most", by the mirrored
   accounting: every token that enters the pool is recorded as stake in the same step (stake), every recorded token
   that disappears leaves the pool in the same step (slash and forced-unstake burns, the payout at maturity), awards
   pass through without staying. Extra invariants carried along: the pool's address has no validator record and no
   queued award. *)
From Coq Require Import List ZArith NArith Lia.
From PM Require Import Base.Bytes Store.KV Store.KVProofs App.Model App.Walk App.BankProofs App.IndexProofs
  App.PoolProofs.
Import ListNotations.
Local Open Scope Z_scope.

Section Exact.
Variable MA : modaddrs.
Notation P := (m_pool MA).

Definition upper (s : state) : Prop := bal s P <= ssum (vals s).
Definition nv (s : state) : Prop := aget (vals s) P = None.          (* the pool's address is no validator *)
Definition na (s : state) : Prop := forall amt, ~ In (P, amt) (awards s).   (* ... and has no queued award *)
Definition px (s : state) : Prop := pool_ok MA s /\ nv s /\ na s /\ upper s.

Lemma nv_neq s a v : nv s -> get_val s a = Some v -> a <> P.
Proof. unfold nv, get_val. intros N E ->. congruence. Qed.

(* a write of a record other than the pool's own, tied to the pool's balance *)
Lemma tied_px s s' a : px s -> pool_ok MA s' /\ tied MA s s' a -> a <> P -> px s'.
Proof.
  intros (_ & N & A & U) [H' (EA & EV & ES)] Na. split; [exact H'|]. unfold nv, na, upper in *.
  rewrite EA, EV by (intros X; apply Na; symmetry; exact X). split; [exact N|]. split; [exact A|lia].
Qed.
(* a bank move alone: the pool's balance may not change *)
Lemma px_bank s ac su : px s -> bank_ok (set_bank s ac su) -> bal (set_bank s ac su) P = bal s P -> px (set_bank s ac su).
Proof.
  intros (H & N & A & U) B Eb. split; [apply pool_bank; auto; lia|]. split; [exact N|]. split; [exact A|].
  unfold upper in *. cbn [vals set_bank]. lia.
Qed.
Lemma send_px s f t amt s' : px s -> f <> P -> t <> P -> bank_send s f t amt = Some s' -> px s'.
Proof.
  intros H Nf Nt E. pose proof H as ((_ & B & _) & _). pose proof (send_pres _ _ _ _ _ B E) as B'.
  destruct (bal_send s f t amt s' P E) as [_ Eb]. bank_only (bank_send_sets _ _ _ _ _ E). apply px_bank; auto. rewrite Eb.
  destruct (beqb f P) eqn:Bf; [apply beqb_eq in Bf; contradiction|]. destruct (beqb t P) eqn:Bt; [apply beqb_eq in Bt; contradiction|lia].
Qed.

(* an award passes through the pool *)
Lemma mint_award_px s a amt : px s -> a <> P -> px (mint_award s a amt).
Proof.
  intros H Na. destruct (mint_award_bal MA s a amt (proj1 H)) as (ac & su & d & -> & B & _ & Eb). apply px_bank; auto. rewrite Eb.
  destruct (beqb a P) eqn:Ba; [apply beqb_eq in Ba; contradiction|lia].
Qed.


(* the histories covered: no gift to the pool's address, no transaction signed by it *)
Definition msg_nogift (m : msg) : Prop :=
  match m with MSend _ t _ => t <> P | MDao _ t _ _ => t <> P | _ => True end.
Definition op_nogift (o : op) : Prop :=
  match o with
  | OTx t => msg_signer (t_msg t) <> P /\ msg_nogift (t_msg t)
  | OAward a _ => a <> P
  | _ => True
  end.

Lemma ante_px s t s' : px s -> msg_signer (t_msg t) <> P -> ante s t = Some s' -> px s'.
Proof.
  intros H K E. pose proof H as ((EM & _ & _ & (D1 & _) & _) & _). apply ante_inv in E. rewrite EM in E.
  exact (send_px _ _ _ _ _ H K (not_eq_sym D1) E).
Qed.

Theorem px_closed : closed op_nogift (fun s s' => px s -> px s').
Proof.
  set (J := fun s s' => px s -> px s').
  assert (R : forall s, J s s) by (intros s H; exact H).
  assert (T : forall s1 s2 s3, J s1 s2 -> J s2 s3 -> J s1 s3) by (intros s1 s2 s3 A B H; exact (B (A H))).
  assert (Sg : sign_in J) by (intros s si mi H; exact H).
  assert (Fo : force_in J).
  { intros s a v s' E F H. exact (tied_px s s' a H (force_unstake_tied MA s a v s' (proj1 H) E F) (nv_neq s a v (proj1 (proj2 H)) E)). }
  assert (Ja : jail_in J).
  { intros s a s' E H. apply (tied_px s s' a H (jail_tied MA s a s' (proj1 H) E)).
    destruct (jail_inv _ _ _ E) as (v & G & _). exact (nv_neq s a v (proj1 (proj2 H)) G). }
  assert (Sl : slash_in J).
  { apply (walk_slash J R T); [|exact Fo]. intros s a v sa E St burn s2. pose proof (cut_tied MA s a v sa) as C. cbv zeta in C.
    fold burn s2 in C. destruct (burn_staked s2 burn); intros H; exact (tied_px s _ a H (C (proj1 H) E St) (nv_neq s a v (proj1 (proj2 H)) E)). }
  constructor; unfold J; auto; try (intros; assumption).
  - (* c_reward *) intros s p s' E H. pose proof H as ((EM & _ & _ & (D1 & D2 & _) & _) & _). revert E. unfold reward_from_fees. rewrite EM.
    destruct (bank_send s (m_fee MA) (m_pos MA) _) as [s1|] eqn:E1; [|discriminate].
    pose proof (send_px _ _ _ _ _ H (not_eq_sym D1) (not_eq_sym D2) E1) as H1.
    destruct (get_val s1 p) as [vp|] eqn:Ep; [|intros [= <-]; exact H1]. rewrite (proj1 (proj1 H1)).
    apply (send_px _ _ _ _ _ H1 (not_eq_sym D2) (nv_neq s1 p vp (proj1 (proj2 H1)) Ep)).
  - (* c_award *) intros s a amt I H. apply mint_award_px; [exact H|]. intros ->. exact (proj1 (proj2 (proj2 H)) amt I).
  - (* c_awards_paid *) intros s (H & N & A & U). split; [exact H|]. split; [exact N|]. split; [intros amt []|exact U].
  - (* c_vote *) apply (walk_vote J R T Sl Ja Sg).
  - (* c_evidence *) apply (walk_evidence J R T Sl Ja Fo Sg).
  - (* c_update *) apply (walk_update J R T). intros s p t H. exact H.
  - (* c_mature *) apply (walk_mature J R T); [|intros s k H; exact H]. intros s a v s' E St F H.
    pose proof (nv_neq s a v (proj1 (proj2 H)) E) as Na. destruct (finish_unstaking_tied MA s a v s' (proj1 H) E St F) as [H' T'].
    exact (tied_px s s' a H (conj H' (T' Na)) Na).
  - (* c_ante *) intros t [K _] s s' E H. exact (ante_px s t s' H K E).
  - (* c_handle *) intros t [K G] s H. pose proof H as ((EM & B & _ & (_ & _ & D3) & _) & _).
    destruct (t_msg t) as [pk a amt|a|a|f to amt|f key v raw wf|f to amt act|f h raw]; cbn [msg_signer msg_nogift] in K, G.
    + exact (tied_px s _ a H (stake_tied MA s pk a amt (proj1 H) K) K).
    + exact (tied_px s _ a H (unstake_tied MA s a (proj1 H)) K).
    + exact (tied_px s _ a H (unjail_tied MA s a (proj1 H)) K).
    + cbn [handle]. destruct (bank_send s f to amt) as [s1|] eqn:E; [|exact H]. exact (send_px _ _ _ _ _ H K G E).
    + cbn [handle]. destruct (negb _); [exact H|]. destruct wf; [|exact H]. unfold apply_param. destruct v; exact H.
    + cbn [handle]. destruct (negb _); [exact H|]. rewrite EM. destruct (act =? 1)%N.
      * destruct (bank_send s (m_dao MA) to amt) as [s1|] eqn:E; [|exact H]. exact (send_px _ _ _ _ _ H (not_eq_sym D3) G E).
      * destruct (act =? 2)%N; [|exact H]. destruct (bank_burn s (m_dao MA) amt) as [s1|] eqn:E; [|exact H].
        pose proof (burn_pres _ _ _ _ B E) as B'. destruct (bal_burn _ _ _ _ P E) as [_ Eb].
        bank_only (bank_burn_sets _ _ _ _ E). apply px_bank; auto. rewrite Eb.
        destruct (beqb (m_dao MA) P) eqn:Bd; [apply beqb_eq in Bd; congruence|lia].
    + cbn [handle]. destruct (negb _); exact H.
  - (* c_k_award *) intros a amt K s (H & N & A & U). split; [exact H|]. split; [exact N|]. split; [|exact U].
    intros x I. apply in_aset in I. destruct I as [[E _]|I]; [congruence|exact (A x I)].
Qed.

Theorem step_px s o s' : px s -> op_nogift o -> step s o = Some s' -> px s'.
Proof. intros H K E. exact (closed_step _ _ px_closed s o s' K E H). Qed.
Theorem run_px ops : forall s s', px s -> Forall op_nogift ops -> run ops s = Some s' -> px s'.
Proof. intros s s' H F E. exact (closed_run _ _ px_closed ops F s s' E H). Qed.
(* C04 with equality *)
Theorem pool_holds_exactly_the_recorded_stake s : px s -> bal s P = ssum (vals s).
Proof. intros ((_ & _ & _ & _ & L) & _ & _ & U). unfold upper in U. lia. Qed.

(* genesis: the pool account has to be funded with exactly the genesis stake *)
Theorem init_chain_px s0 gvals dao s ups : ma s0 = MA -> bank_ok s0 -> vals_ok (vals s0) -> mods_distinct MA ->
  (forall g, In g gvals -> aget (vals s0) (g_addr g) = None) -> NoDup (map g_addr gvals) ->
  (forall g, In g gvals -> 0 <= snd g) -> (forall g, In g gvals -> g_addr g <> P) ->
  nv s0 -> na s0 -> ssum (vals s0) + gsum gvals = bal s0 P ->
  init_chain s0 gvals dao = Some (s, ups) -> px s.
Proof.
  intros EM B V D A ND NN NP N0 A0 L E. destruct (init_chain_inv _ _ _ _ _ E) as (s2 & E2 & K).
  destruct (genesis_fold gvals s0 V A ND NN) as (_ & F2 & _ & F4 & _ & F6 & F7).
  assert (H1 : px (fold_left genesis_validator gvals s0)).
  { split; [apply genesis_fold_pool; auto; lia|]. unfold nv, na, upper, bal. rewrite F7, F4, F2, F6 by exact NP.
    split; [exact N0|]. split; [exact A0|]. fold (bal s0 P). lia. }
  pose proof (c_update _ _ px_closed _ _ _ E2 H1) as H2. destruct K as [->|K]; [exact H2|].
  pose proof H2 as ((EM2 & B2 & _ & (_ & _ & D3) & _) & _). rewrite EM2 in K. pose proof (mint_pres _ _ _ _ B2 K) as B3.
  destruct (bal_mint _ _ _ _ P K) as [_ Eb]. bank_only (bank_mint_sets _ _ _ _ K). apply px_bank; auto. rewrite Eb.
  destruct (beqb (m_dao MA) P) eqn:Bd; [apply beqb_eq in Bd; congruence|lia].
Qed.
End Exact.
