(* C05 / C20: the power-rank key orders validators by (power, inverted address): iterating the
   index backwards yields power descending, address ascending. Big-endian fixed-width encoding
   preserves the order of numbers; byte inversion reverses the order of equal-length strings. *)
From Coq Require Import List ZArith Lia.
From PM Require Import Base.Bytes App.Model.
Import ListNotations.
Local Open Scope Z_scope.

Lemma be_bytes_length n z : length (be_bytes n z) = n.
Proof. apply (radix_length 256 0); reflexivity. Qed.
Lemma be_bytes_compare n : forall x y, 0 <= x < 256 ^ Z.of_nat n -> 0 <= y < 256 ^ Z.of_nat n ->
  bcompare (be_bytes n x) (be_bytes n y) = (x ?= y).
Proof. apply (radix_compare 256 0); reflexivity || lia. Qed.

Lemma inv_bytes_compare a : forall b, wf_bytes a -> wf_bytes b -> length a = length b ->
  bcompare (inv_bytes a) (inv_bytes b) = bcompare b a.
Proof.
  induction a as [|x a IH]; intros [|y b] Wa Wb L; simpl in L; try discriminate; auto.
  inversion Wa; inversion Wb; subst. cbn [inv_bytes map bcompare]. fold (inv_bytes a). fold (inv_bytes b).
  assert (E : ((255 - x ?= 255 - y) = (y ?= x))%N).
  { destruct (N.compare_spec y x); [apply N.compare_eq_iff|apply N.compare_lt_iff|apply N.compare_gt_iff]; lia. }
  rewrite E. destruct (y ?= x)%N; auto.
Qed.
(* C05/C20: byte order of the rank keys = (power ascending, then address DEscending); so the
   reverse iteration used by UpdateTendermintValidators is power descending, address ascending *)
Theorem rank_key_order t1 a1 t2 a2 :
  0 <= power_of t1 < 2 ^ 64 -> 0 <= power_of t2 < 2 ^ 64 ->
  wf_bytes a1 -> wf_bytes a2 -> length a1 = length a2 ->
  bcompare (rank_key t1 a1) (rank_key t2 a2) =
  match power_of t1 ?= power_of t2 with Eq => bcompare a2 a1 | c => c end.
Proof.
  intros P1 P2 W1 W2 L. unfold rank_key.
  rewrite bcompare_app_eqlen by (rewrite !be_bytes_length; auto).
  rewrite be_bytes_compare by (simpl; lia).
  rewrite inv_bytes_compare by auto. reflexivity.
Qed.
Theorem rank_key_injective t1 a1 t2 a2 :
  0 <= power_of t1 < 2 ^ 64 -> 0 <= power_of t2 < 2 ^ 64 ->
  wf_bytes a1 -> wf_bytes a2 -> length a1 = length a2 ->
  rank_key t1 a1 = rank_key t2 a2 -> power_of t1 = power_of t2 /\ a1 = a2.
Proof.
  intros P1 P2 W1 W2 L E. pose proof (rank_key_order t1 a1 t2 a2 P1 P2 W1 W2 L) as O.
  rewrite E, bcompare_refl in O. destruct (Z.compare_spec (power_of t1) (power_of t2)); try discriminate.
  split; auto. symmetry. apply bcompare_eq. auto.
Qed.
