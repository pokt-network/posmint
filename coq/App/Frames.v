(* A generic frame library: a projection of the state that the setters other than [set_prev] and [set_params] leave alone
   is left alone by the whole block cycle except the validator-set update (the only caller of [set_prev]) and the two
   governance messages that set parameters (the only callers of [set_params]). The section assumes all ten setters
   harmless, but every theorem depends only on those named in its [Proof using] line, and asks its caller for those
   alone: with [set_params] harmless as well, every step but EndBlock leaves the projection alone (used for the module's
   record of Tendermint's validator set: prevpow, prevtotal); with [set_prev] harmless, EndBlock does (used for the
   governance view). Slash, a vote, a piece of evidence, BeginBlock, the release of mature validators and ante come from
   App/Walk.v at J := [same]; the handlers, EndBlock and step are put together here, so that each asks for its own setters. *)
From Coq Require Import List ZArith NArith Bool.
From PM Require Import App.Model App.Walk.
Import ListNotations.
Local Open Scope Z_scope.

Section Frame.
Variable T : Type.
Variable pi : state -> T.
Hypothesis Hbank : forall s a u, pi (set_bank s a u) = pi s.
Hypothesis Hvals : forall s v, pi (set_vals s v) = pi s.
Hypothesis Hpowidx : forall s p, pi (set_powidx s p) = pi s.
Hypothesis Hunstq : forall s q, pi (set_unstq s q) = pi s.
Hypothesis Hsign : forall s a b, pi (set_sign s a b) = pi s.
Hypothesis Hqueues : forall s a b, pi (set_queues s a b) = pi s.
Hypothesis Hmisc : forall s a b, pi (set_misc s a b) = pi s.
Hypothesis Hparams : forall s a b c d e, pi (set_params s a b c d e) = pi s.
Hypothesis Hblock : forall s a b, pi (set_block s a b) = pi s.
Hypothesis Hprev : forall s p t, pi (set_prev s p t) = pi s.

Definition same (s s' : state) : Prop := pi s' = pi s.
Let same_refl : forall s, same s s := fun _ => eq_refl.
Let same_trans : forall s1 s2 s3, same s1 s2 -> same s2 s3 -> same s1 s3 := fun _ _ _ A B => eq_trans B A.

Lemma fr_put_val s a v : pi (put_val s a v) = pi s. Proof using Hvals. apply Hvals. Qed.
Lemma fr_set_staked s a v : pi (set_staked s a v) = pi s.
Proof using Hpowidx. unfold set_staked. destruct (_ || _); [reflexivity|apply Hpowidx]. Qed.
Lemma fr_bank_send : send_in same.
Proof using Hbank. intros s f t a s' E. bank_only (bank_send_sets _ _ _ _ _ E). apply Hbank. Qed.
Lemma fr_bank_mint s m a s' : bank_mint s m a = Some s' -> pi s' = pi s.
Proof using Hbank. intros E. bank_only (bank_mint_sets _ _ _ _ E). apply Hbank. Qed.
Lemma fr_bank_burn s m a s' : bank_burn s m a = Some s' -> pi s' = pi s.
Proof using Hbank. intros E. bank_only (bank_burn_sets _ _ _ _ E). apply Hbank. Qed.
Lemma fr_force_unstake : force_in same.
Proof using Hbank Hvals Hpowidx Hunstq.
  intros s a v s' _ F. destruct (force_unstake_inv _ _ _ _ F) as (ac & su & ->).
  unfold same, del_staked. rewrite fr_put_val, Hbank, Hunstq. apply Hpowidx.
Qed.
Lemma fr_slash : slash_in same.
Proof using Hbank Hvals Hpowidx Hunstq.
  apply (walk_slash same same_refl same_trans); [|exact fr_force_unstake]. intros s a v sa _ _ burn s2.
  assert (F2 : pi s2 = pi s) by (unfold s2, reindexed, del_staked; rewrite fr_set_staked, fr_put_val; apply Hpowidx).
  destruct (burn_staked s2 burn) as [s3|] eqn:E3; [|exact F2]. bank_only (burn_staked_sets _ _ _ E3). unfold same. rewrite Hbank. exact F2.
Qed.
Lemma fr_jail : jail_in same.
Proof using Hvals Hpowidx.
  intros s a s' E. destruct (jail_inv _ _ _ E) as (v & _ & _ & ->). unfold same, del_staked. rewrite Hpowidx.
  apply fr_put_val.
Qed.
Lemma fr_handle_signature s a p sg s' : handle_signature s a p sg = Some s' -> pi s' = pi s.
Proof using Hbank Hvals Hpowidx Hunstq Hsign. apply (walk_vote same same_refl same_trans fr_slash fr_jail). intros x si mi. apply Hsign. Qed.
Lemma fr_handle_double_sign s a h t p s' : handle_double_sign s a h t p = Some s' -> pi s' = pi s.
Proof using Hbank Hvals Hpowidx Hunstq Hsign. apply (walk_evidence same same_refl same_trans fr_slash fr_jail fr_force_unstake). intros x si mi. apply Hsign. Qed.
Theorem fr_begin_block s h t prop votes evs s' : begin_block s h t prop votes evs = Some s' -> pi s' = pi s.
Proof using Hbank Hvals Hpowidx Hunstq Hsign Hqueues Hmisc Hblock.
  apply (walk_begin_block same same_refl same_trans); try (intros; apply Hblock || apply Hqueues || apply Hmisc).
  - apply (walk_reward same same_refl same_trans fr_bank_send).
  - intros x a amt _. apply (walk_mint_award same same_refl same_trans fr_bank_send fr_bank_mint).
  - exact fr_slash.
  - exact fr_handle_signature.
  - exact fr_handle_double_sign.
Qed.
Lemma fr_unstake_mature s s' : unstake_mature s = Some s' -> pi s' = pi s.
Proof using Hbank Hvals Hunstq.
  apply (walk_mature same same_refl same_trans); [|intros x k; apply Hunstq].
  intros x a v x' _ _ F. destruct (finish_unstaking_inv _ _ _ _ F) as (ac & su & _ & ->).
  unfold same, del_unstaking. cbv zeta. rewrite Hvals, Hbank. apply Hunstq.
Qed.
Theorem fr_end_block s s' ups : end_block s = Some (s', ups) -> pi s' = pi s.
Proof using Hbank Hvals Hunstq Hprev.
  unfold end_block. destruct (update_tm_validators s) as [[s1 u]|] eqn:E; [|discriminate].
  destruct (unstake_mature s1) as [s2|] eqn:E2; [|discriminate]. intros [= <- _].
  rewrite (fr_unstake_mature _ _ E2). exact (walk_update same same_refl same_trans Hprev _ _ _ E).
Qed.
Lemma fr_ante s t s' : ante s t = Some s' -> pi s' = pi s.
Proof using Hbank. apply (walk_ante same same_refl same_trans fr_bank_send). Qed.
(* the handlers of every message but the two that set parameters *)
Lemma fr_handle s m : (forall f k v raw wf, m <> MChangeParam f k v raw wf) -> (forall f h raw, m <> MUpgrade f h raw) ->
  pi (hres_state (handle s m)) = pi s.
Proof using Hbank Hvals Hpowidx Hunstq Hsign Hmisc.
  intros N1 N2. destruct m as [pk a amt|a|a|f t amt|f key v raw wf|f t amt act|f h raw]; [|cbn [handle]| |cbn [handle]..].
  - destruct (stake_inv s pk a amt) as [->|(v0 & s1 & G & _ & _ & _ & K)]; [reflexivity|].
    assert (F1 : pi s1 = pi s) by (destruct G as [[_ ->]|(_ & _ & ->)]; [reflexivity|rewrite Hmisc; apply fr_put_val]).
    destruct K as [[_ ->]|(s2 & E & K)]; [exact F1|]. rewrite <- F1, <- (fr_bank_send _ _ _ _ _ E).
    destruct K as [[-> _]|[-> _]]; cbn [hres_state]; rewrite ?Hsign, fr_set_staked; apply fr_put_val.
  - destruct (get_val s a) as [v|]; [|reflexivity]. destruct (negb _); [reflexivity|]. destruct (_ <? _); [reflexivity|].
    cbn [hres_state]. unfold del_staked. rewrite Hunstq, fr_put_val. apply Hpowidx.
  - destruct (unjail_inv s a) as [->|(v & si & _ & _ & _ & _ & _ & _ & _ & ->)]; [reflexivity|].
    cbn [hres_state]. rewrite fr_set_staked. apply fr_put_val.
  - destruct (bank_send s f t amt) as [s1|] eqn:E; [exact (fr_bank_send _ _ _ _ _ E)|reflexivity].
  - destruct (N1 f key v raw wf eq_refl).
  - destruct (negb _); [reflexivity|]. destruct (act =? 1)%N.
    + destruct (bank_send s _ t amt) as [s1|] eqn:E; [exact (fr_bank_send _ _ _ _ _ E)|reflexivity].
    + destruct (act =? 2)%N; [|reflexivity]. destruct (bank_burn s _ amt) as [s1|] eqn:E; [exact (fr_bank_burn _ _ _ _ E)|reflexivity].
  - destruct (N2 f h raw eq_refl).
Qed.
Lemma fr_apply_param s k v raw : pi (apply_param s k v raw) = pi s.
Proof using Hparams. unfold apply_param. destruct v; apply Hparams. Qed.
Theorem fr_deliver_tx s t : pi (dres_state (deliver_tx s t)) = pi s.
Proof using Hbank Hvals Hpowidx Hunstq Hsign Hmisc Hparams.
  unfold deliver_tx. destruct (_ || _); [reflexivity|]. destruct (ante s t) as [s1|] eqn:Ea; [|reflexivity].
  rewrite <- (fr_ante _ _ _ Ea).
  assert (H : pi (hres_state (handle s1 (t_msg t))) = pi s1).
  { destruct (t_msg t) as [| | | |f key v raw wf| |f h raw] eqn:Em; try (apply fr_handle; congruence); cbn [handle].
    - destruct (negb _); [reflexivity|]. destruct wf; [apply fr_apply_param|reflexivity].
    - destruct (negb _); [reflexivity|]. apply fr_apply_param. }
  destruct (handle s1 (t_msg t)); exact H.
Qed.
(* every step except EndBlock *)
Theorem fr_step s o s' : o <> OEnd -> step s o = Some s' -> pi s' = pi s.
Proof using Hbank Hvals Hpowidx Hunstq Hsign Hqueues Hmisc Hparams Hblock.
  intros N. destruct o as [h t p vs es|t|a amt|a sev| |]; cbn [step]; try congruence.
  - apply fr_begin_block.
  - intros [= <-]. apply fr_deliver_tx.
  - intros [= <-]. apply Hqueues.
  - intros [= <-]. apply Hqueues.
Qed.
End Frame.
