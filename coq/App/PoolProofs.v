(* C04: in every reachable state of every history the staked-tokens pool holds at least the sum of
   the stake recorded for all validators that are not unstaked (one-for-one backing; the pool may
   hold MORE only through tokens somebody sent to its address), unstaked validators record no
   stake, and no recorded stake is negative.  Premises, visible in the theorems: the four module
   accounts have distinct addresses, and no transaction is signed by the pool's address (a module
   address is a hash of the module's name: nobody holds a key for it). *)
From Coq Require Import List ZArith NArith Bool Lia.
From PM Require Import Base.Bytes Store.KV Store.KVProofs App.Model App.Walk App.BankProofs App.IndexProofs.
Import ListNotations.
Local Open Scope Z_scope.

Definition stk (v : validator) : Z := if (v_status v =? 0)%N then 0 else v_tokens v.
Fixpoint ssum (V : amap validator) : Z := match V with [] => 0 | (_, v) :: r => stk v + ssum r end.
Definition stkz (V : amap validator) (a : bytes) : Z := match aget V a with Some v => stk v | None => 0 end.

Lemma ssum_aset V a v : ssum (aset V a v) = ssum V - stkz V a + stk v.
Proof.
  unfold stkz. induction V as [|[k0 v0] r IH]; simpl; [lia|].
  destruct (bcompare a k0); simpl; lia.
Qed.
Lemma ssum_adel V a : ssum (adel V a) = ssum V - stkz V a.
Proof.
  unfold stkz. induction V as [|[k0 v0] r IH]; simpl; [lia|].
  destruct (bcompare a k0); simpl; lia.
Qed.

Definition mods_distinct (m : modaddrs) : Prop :=
  m_pool m <> m_fee m /\ m_pool m <> m_pos m /\ m_pool m <> m_dao m.
Definition vals_ok (V : amap validator) : Prop :=
  asorted V /\ forall a v, aget V a = Some v -> 0 <= v_tokens v /\ (v_status v = 0%N -> v_tokens v = 0).

Lemma vals_ok_aset V a v : vals_ok V -> 0 <= v_tokens v -> (v_status v = 0%N -> v_tokens v = 0) -> vals_ok (aset V a v).
Proof.
  intros [S H] N Z0. split; [apply aset_sorted; auto|]. intros b w. rewrite aget_aset.
  destruct (beqb a b); [intros [= <-]; auto|apply H].
Qed.
Lemma vals_ok_adel V a : vals_ok V -> vals_ok (adel V a).
Proof.
  intros [S H]. split; [apply adel_sorted; auto|]. intros b w. rewrite aget_adel by auto.
  destruct (beqb a b); [discriminate|apply H].
Qed.

(* the recorded sum is at least any single record (all are non-negative) *)
Lemma ssum_nonneg V : vals_ok V -> 0 <= ssum V.
Proof.
  induction V as [|[k0 v0] r IH]; intros H; cbn [ssum]; [lia|].
  assert (E0 : aget ((k0, v0) :: r) k0 = Some v0) by (simpl; rewrite bcompare_refl; reflexivity).
  destruct (proj2 H k0 v0 E0) as [N _]. pose proof (vals_ok_adel _ k0 H) as Hr. simpl in Hr. rewrite bcompare_refl in Hr.
  specialize (IH Hr). unfold stk. destruct (_ =? _)%N; lia.
Qed.
Lemma ssum_ge_stkz V a : vals_ok V -> stkz V a <= ssum V.
Proof. intros H. pose proof (ssum_nonneg _ (vals_ok_adel V a H)) as N. rewrite ssum_adel in N. lia. Qed.

Section Pool.
Variable MA : modaddrs.                       (* the module addresses: fixed for a whole history *)
Definition pool_ok (s : state) : Prop :=
  ma s = MA /\ bank_ok s /\ vals_ok (vals s) /\ mods_distinct MA /\ ssum (vals s) <= bal s (m_pool MA).

Lemma val_facts s a v : pool_ok s -> get_val s a = Some v -> 0 <= v_tokens v /\ (v_status v = 0%N -> v_tokens v = 0).
Proof. intros (_ & _ & V & _) E. apply (proj2 V a v E). Qed.

(* a bank move alone: the pool may not lose *)
Lemma pool_bank s ac su : pool_ok s -> bank_ok (set_bank s ac su) ->
  bal s (m_pool MA) <= bal (set_bank s ac su) (m_pool MA) -> pool_ok (set_bank s ac su).
Proof. intros (EM & _ & V & M & L) B Le. split; [exact EM|]. split; [exact B|]. split; [exact V|]. split; [exact M|]. cbn [vals set_bank]. lia. Qed.
Lemma pool_send_other s f t amt s' : pool_ok s -> f <> m_pool MA -> bank_send s f t amt = Some s' -> pool_ok s'.
Proof.
  intros H Nf E. pose proof (send_pres _ _ _ _ _ (proj1 (proj2 H)) E) as B'.
  destruct (bal_send s f t amt s' (m_pool MA) E) as [N Eb].
  bank_only (bank_send_sets _ _ _ _ _ E). apply pool_bank; auto. rewrite Eb.
  destruct (beqb f (m_pool MA)) eqn:Bf; [apply beqb_eq in Bf; contradiction|]. destruct (beqb t _); lia.
Qed.

(* A validator's record and the pool's balance move together.
   [tied s s' a]: between s and s' only a's record changed, no award was queued, and the pool's balance moved by exactly
   the change in the recorded sum. Every write of a record is of this kind: the lower bound of [pool_ok] survives it, and
   so does the upper bound of PoolExact. *)
Definition tied (s s' : state) (a : bytes) : Prop :=
  awards s' = awards s /\ (forall b, b <> a -> aget (vals s') b = aget (vals s) b) /\
  ssum (vals s') - ssum (vals s) = bal s' (m_pool MA) - bal s (m_pool MA).
Lemma tied_refl s a : tied s s a.
Proof. split; [reflexivity|]. split; [reflexivity|lia]. Qed.
Lemma tied_trans s1 s2 s3 a : tied s1 s2 a -> tied s2 s3 a -> tied s1 s3 a.
Proof.
  intros (A1 & V1 & L1) (A2 & V2 & L2). split; [congruence|]. split; [|lia].
  intros b Nb. rewrite V2, V1 by exact Nb. reflexivity.
Qed.
Lemma tied_put s s' a v1 : pool_ok s -> ma s' = MA -> bank_ok s' -> awards s' = awards s -> vals s' = aset (vals s) a v1 ->
  0 <= v_tokens v1 -> (v_status v1 = 0%N -> v_tokens v1 = 0) ->
  stk v1 - stkz (vals s) a = bal s' (m_pool MA) - bal s (m_pool MA) -> pool_ok s' /\ tied s s' a.
Proof.
  intros (_ & _ & V & M & L) EM B EA EV N Z0 Eq.
  assert (ES : ssum (vals s') = ssum (vals s) - stkz (vals s) a + stk v1) by (rewrite EV; apply ssum_aset).
  split.
  - split; [exact EM|]. split; [exact B|]. split; [rewrite EV; apply vals_ok_aset; auto|]. split; [exact M|lia].
  - split; [exact EA|]. split; [|lia]. intros b Nb. rewrite EV, aget_aset.
    destruct (beqb a b) eqn:Bq; [apply beqb_eq in Bq; congruence|reflexivity].
Qed.
(* the same when accounts and supply stay as they are: the new record must carry the old stake *)
Lemma tied_rewrite s s' a v1 : pool_ok s -> ma s' = ma s -> accts s' = accts s -> supply s' = supply s -> awards s' = awards s ->
  vals s' = aset (vals s) a v1 -> 0 <= v_tokens v1 -> (v_status v1 = 0%N -> v_tokens v1 = 0) ->
  stk v1 = stkz (vals s) a -> pool_ok s' /\ tied s s' a.
Proof.
  intros H EM EA ES EW EV N Z0 Eq. apply (tied_put s s' a v1); auto.
  - rewrite EM. apply H.
  - unfold bank_ok. rewrite EA, ES. apply H.
  - unfold bal. rewrite EA. lia.
Qed.

Lemma burn_staked_bal s amt s' : burn_staked s amt = Some s' -> ma s = MA -> bank_ok s ->
  bank_ok s' /\ bal s' (m_pool MA) = bal s (m_pool MA) - amt.
Proof.
  unfold burn_staked. intros E EM B. rewrite EM in E. destruct (amt <=? 0); [discriminate|]. split; [exact (burn_pres _ _ _ _ B E)|].
  destruct (bal_burn _ _ _ _ (m_pool MA) E) as [_ ->]. rewrite beqb_refl. reflexivity.
Qed.

Lemma burn_staked_none s amt : burn_staked s amt = None -> ma s = MA -> amt <= 0 \/ bal s (m_pool MA) < amt.
Proof.
  unfold burn_staked, bank_burn. intros E EM. rewrite EM in E. destruct (amt <=? 0) eqn:Le; [left; lia|].
  destruct (_ || _) eqn:G; [|discriminate]. apply orb_true_iff in G. destruct G as [G|G]; apply Z.ltb_lt in G; [left|right]; lia.
Qed.

Lemma force_unstake_tied s a v s' : pool_ok s -> get_val s a = Some v -> force_unstake s a v = Some s' -> pool_ok s' /\ tied s s' a.
Proof.
  unfold force_unstake. intros H E. destruct (val_facts s a v H E) as [Nv Zv]. pose proof H as (EM & B & _).
  assert (Sz : stkz (vals s) a = Z.max (v_tokens v) 0).
  { unfold stkz, stk. unfold get_val in E. rewrite E. destruct (v_status v =? 0)%N eqn:S0; [apply N.eqb_eq in S0|]; lia. }
  rewrite unqueued_sets. set (q := if (v_status v =? 1)%N then _ else _). destruct (0 <? v_tokens v) eqn:Pos.
  - destruct (burn_staked _ (v_tokens v)) as [s2|] eqn:E2; [|discriminate]. intros [= <-]. apply Z.ltb_lt in Pos.
    destruct (burn_staked_bal _ _ _ E2 EM B) as [B2 Eb]. change (bal (set_unstq _ q) (m_pool MA)) with (bal s (m_pool MA)) in Eb.
    bank_only (burn_staked_sets _ _ _ E2). apply (tied_put s _ a (with_status (with_tokens v 0) 0)); auto; try (cbn; lia).
    rewrite Sz, bal_put_val, Eb. unfold stk. cbn. lia.
  - intros [= <-]. apply Z.ltb_ge in Pos. apply (tied_rewrite s _ a (with_status (with_tokens v 0) 0)); auto; cbn; lia.
Qed.

(* the cut of a slash. The burn cannot fail for want of funds: the pool backs every record *)
Lemma cut_tied s a v sa : pool_ok s -> get_val s a = Some v -> (v_status v =? 0)%N = false ->
  let burn := Z.max (Z.min sa (v_tokens v)) 0 in
  let s2 := reindexed s a v (with_tokens v (v_tokens v - burn)) in
  match burn_staked s2 burn with Some s3 => pool_ok s3 /\ tied s s3 a | None => pool_ok s2 /\ tied s s2 a end.
Proof.
  intros H E St burn s2. destruct (val_facts s a v H E) as [Nv _]. pose proof H as (EM & B & V & _ & L).
  assert (Hb : 0 <= burn <= v_tokens v) by (unfold burn; lia).
  assert (Sz : stkz (vals s) a = v_tokens v) by (unfold stkz, stk; unfold get_val in E; rewrite E, St; reflexivity).
  pose proof (ssum_ge_stkz (vals s) a V) as Af.
  set (v1 := with_tokens v (v_tokens v - burn)) in *.
  assert (K : forall x, ma x = MA -> bank_ok x -> awards x = awards s -> vals x = aset (vals s) a v1 ->
            bal x (m_pool MA) = bal s (m_pool MA) - burn -> pool_ok x /\ tied s x a).
  { intros x EMx Bx EA EV Eb. apply (tied_put s x a v1); auto; try (cbn; lia).
    - cbn. intros S0. rewrite S0 in St. discriminate.
    - rewrite Sz, Eb. unfold stk, v1. cbn. rewrite St. lia. }
  unfold s2, reindexed. destruct (set_staked_sets (put_val (del_staked s a v) a v1) a v1) as (ix & ->).
  destruct (burn_staked _ burn) as [s3|] eqn:E3.
  - destruct (burn_staked_bal _ _ _ E3 EM B) as [B3 Eb]. bank_only (burn_staked_sets _ _ _ E3). apply K; auto.
  - assert (Z0 : burn = 0).
    { destruct (burn_staked_none _ _ E3 EM) as [G|G]; [lia|]. change (bal (set_powidx _ ix) (m_pool MA)) with (bal s (m_pool MA)) in G. lia. }
    apply K; auto. change (bal (set_powidx _ ix) (m_pool MA)) with (bal s (m_pool MA)). lia.
Qed.

Lemma jail_tied s a s' : pool_ok s -> jail s a = Some s' -> pool_ok s' /\ tied s s' a.
Proof.
  intros H Ej. destruct (jail_inv _ _ _ Ej) as (v & E & _ & ->). destruct (val_facts s a v H E) as [Nv Zv].
  apply (tied_rewrite s _ a (with_jailed v true)); auto. unfold stkz. unfold get_val in E. rewrite E. reflexivity.
Qed.
(* maturity: the recorded stake leaves the pool for its owner, the record goes *)
Lemma finish_unstaking_tied s a v s' : pool_ok s -> get_val s a = Some v -> v_status v = 1%N ->
  finish_unstaking s a v = Some s' -> pool_ok s' /\ (a <> m_pool MA -> tied s s' a).
Proof.
  intros H E St F. pose proof H as (EM & B & V & M & L). destruct (finish_unstaking_inv _ _ _ _ F) as (ac & su & E2 & ->).
  rewrite EM in E2. pose proof (send_pres (del_unstaking s a v) _ _ _ _ B E2) as B2.
  destruct (bal_send (del_unstaking s a v) _ _ _ _ (m_pool MA) E2) as [N Eb]. rewrite beqb_refl in Eb.
  set (s' := set_vals _ _).
  assert (EV : vals s' = adel (vals s) a) by reflexivity.
  assert (Eb' : bal s' (m_pool MA) = bal s (m_pool MA) - v_tokens v + (if beqb a (m_pool MA) then v_tokens v else 0)) by exact Eb.
  assert (ES : ssum (vals s') = ssum (vals s) - v_tokens v).
  { rewrite EV, ssum_adel. unfold stkz, stk. unfold get_val in E. rewrite E, St. reflexivity. }
  split.
  - split; [exact EM|]. split; [exact B2|]. split; [rewrite EV; apply vals_ok_adel; exact V|]. split; [exact M|].
    destruct (beqb a (m_pool MA)); lia.
  - intros Na. split; [reflexivity|]. split.
    + intros b Nb. rewrite EV, aget_adel by apply V. destruct (beqb a b) eqn:Bq; [apply beqb_eq in Bq; congruence|reflexivity].
    + destruct (beqb a (m_pool MA)) eqn:Ba; [apply beqb_eq in Ba; contradiction|]. lia.
Qed.

(* stake: a record without stake (new, or unstaked) takes up what its owner sends to the pool *)
Lemma stake_tied s pk a amt : pool_ok s -> a <> m_pool MA ->
  pool_ok (hres_state (handle s (MStake pk a amt))) /\ tied s (hres_state (handle s (MStake pk a amt))) a.
Proof.
  intros H Na. pose proof (conj H (tied_refl s a)) as R.
  destruct (stake_inv s pk a amt) as [->|(v0 & s1 & G & St0 & _ & _ & K)]; [exact R|].
  assert (R1 : (pool_ok s1 /\ tied s s1 a) /\ get_val s1 a = Some v0 /\ v_tokens v0 = 0).
  { destruct G as [[E ->]|(E & Ev & ->)].
    - split; [exact R|]. split; [exact E|]. apply (val_facts s a v0 H E), St0.
    - split; [|split; [apply get_put_val|rewrite Ev; reflexivity]].
      apply (tied_rewrite s _ a v0); auto; try (rewrite Ev); try (cbn; lia). unfold stkz. unfold get_val in E.
      rewrite E. reflexivity. }
  destruct R1 as ([H1 T1] & E1 & Z0). destruct K as [[_ ->]|(s2 & E & K)]; [exact (conj H1 T1)|].
  cbv zeta in K. set (v1 := with_status (with_tokens v0 (v_tokens v0 + amt)) 2) in K.
  rewrite (proj1 H1) in E. pose proof (send_pres _ _ _ _ _ (proj1 (proj2 H1)) E) as B2.
  destruct (bal_send _ _ _ _ _ (m_pool MA) E) as [N Eb]. rewrite beqb_refl in Eb.
  destruct (beqb a (m_pool MA)) eqn:Ba; [apply beqb_eq in Ba; contradiction|].
  bank_only (bank_send_sets _ _ _ _ _ E).
  destruct (set_staked_sets (put_val (set_bank s1 ac su) a v1) a v1) as (ix & Ex). rewrite Ex in K.
  assert (R3 : pool_ok (set_powidx (put_val (set_bank s1 ac su) a v1) ix) /\ tied s (set_powidx (put_val (set_bank s1 ac su) a v1) ix) a).
  { destruct (tied_put s1 (set_powidx (put_val (set_bank s1 ac su) a v1) ix) a v1 H1) as [H3 T3]; auto; try (cbn; lia || discriminate).
    - apply H1.
    - unfold stkz. unfold get_val in E1. rewrite E1. change (bal (set_powidx _ ix) (m_pool MA)) with (bal (set_bank s1 ac su) (m_pool MA)).
      rewrite Eb. unfold stk. rewrite St0. cbn. lia.
    - split; [exact H3|exact (tied_trans _ _ _ _ T1 T3)]. }
  destruct K as [[-> _]|[-> _]]; exact R3.
Qed.
(* begin unstake: the stake stays in the pool *)
Lemma unstake_tied s a : pool_ok s ->
  pool_ok (hres_state (handle s (MUnstake a))) /\ tied s (hres_state (handle s (MUnstake a))) a.
Proof.
  intros H. pose proof (conj H (tied_refl s a)) as R. cbn [handle].
  destruct (get_val s a) as [v|] eqn:E; [|exact R]. destruct (v_status v =? 2)%N eqn:St; cbn [negb]; [|exact R].
  destruct (_ <? _); [exact R|]. cbn [hres_state]. apply N.eqb_eq in St. destruct (val_facts s a v H E) as [Nv _].
  apply (tied_rewrite s _ a (with_unstime (with_status v 1) (btime s + p_unstaking_time (pp s)))); auto; try (cbn; lia || discriminate).
  unfold stkz, stk. unfold get_val in E. rewrite E, St. reflexivity.
Qed.

Lemma unjail_tied s a : pool_ok s ->
  pool_ok (hres_state (handle s (MUnjail a))) /\ tied s (hres_state (handle s (MUnjail a))) a.
Proof.
  intros H. destruct (unjail_inv s a) as [->|(v & si & E & _ & _ & _ & _ & _ & _ & ->)]; [exact (conj H (tied_refl s a))|].
  destruct (val_facts s a v H E) as [Nv Zv]. cbn [hres_state].
  destruct (set_staked_sets (put_val s a (with_jailed v false)) a (with_jailed v false)) as (ix & ->).
  apply (tied_rewrite s _ a (with_jailed v false)); auto. unfold stkz. unfold get_val in E. rewrite E. reflexivity.
Qed.

(* an award is minted into the pool and forwarded; the forward cannot fail, the pool has just received the amount *)
Lemma mint_award_bal s a amt : pool_ok s -> exists ac su d, mint_award s a amt = set_bank s ac su /\ bank_ok (set_bank s ac su) /\
  0 <= d /\ bal (set_bank s ac su) (m_pool MA) = bal s (m_pool MA) + (if beqb a (m_pool MA) then d else 0).
Proof.
  unfold mint_award. intros (EM & B & V & _ & L). rewrite EM. destruct (bank_mint s (m_pool MA) amt) as [s1|] eqn:E1.
  2:{ exists (accts s), (supply s), 0. split; [destruct s; reflexivity|]. split; [exact B|]. split; [lia|]. unfold bal. cbn [accts set_bank].
      destruct (beqb a _); lia. }
  pose proof (mint_pres _ _ _ _ B E1) as B1. destruct (bal_mint _ _ _ _ (m_pool MA) E1) as [N Eb]. rewrite beqb_refl in Eb.
  bank_only (bank_mint_sets _ _ _ _ E1). change (ma (set_bank s ac su)) with (ma s). rewrite EM.
  destruct (bank_send _ (m_pool MA) a amt) as [s2|] eqn:E2.
  - pose proof (send_pres _ _ _ _ _ B1 E2) as B2. destruct (bal_send _ _ _ _ _ (m_pool MA) E2) as [_ Eb2]. rewrite beqb_refl in Eb2.
    bank_only (bank_send_sets _ _ _ _ _ E2). exists ac0, su0, amt. split; [reflexivity|]. split; [exact B2|]. split; [exact N|].
    change (bal (set_bank (set_bank s ac su) ac0 su0) (m_pool MA)) with (bal (set_bank s ac0 su0) (m_pool MA)) in Eb2.
    destruct (beqb a (m_pool MA)); lia.
  - exfalso. unfold bank_send in E2. destruct (_ || _) eqn:G; [|discriminate]. pose proof (ssum_nonneg _ V).
    apply orb_true_iff in G. destruct G as [G|G]; apply Z.ltb_lt in G; lia.
Qed.
Lemma mint_award_pool s a amt : pool_ok s -> pool_ok (mint_award s a amt).
Proof.
  intros H. destruct (mint_award_bal s a amt H) as (ac & su & d & -> & B & N & Eb). apply pool_bank; auto. rewrite Eb.
  destruct (beqb a _); lia.
Qed.

Definition op_ok (o : op) : Prop :=
  match o with OTx t => msg_signer (t_msg t) <> m_pool MA | _ => True end.
Theorem pool_closed : closed op_ok (fun s s' => pool_ok s -> pool_ok s').
Proof.
  set (J := fun s s' => pool_ok s -> pool_ok s').
  assert (R : forall s, J s s) by (intros s H; exact H).
  assert (T : forall s1 s2 s3, J s1 s2 -> J s2 s3 -> J s1 s3) by (intros s1 s2 s3 A B H; exact (B (A H))).
  assert (Sg : sign_in J) by (intros s si mi H; exact H).
  assert (Fo : force_in J) by (intros s a v s' E F H; exact (proj1 (force_unstake_tied s a v s' H E F))).
  assert (Ja : jail_in J) by (intros s a s' E H; exact (proj1 (jail_tied s a s' H E))).
  assert (Sl : slash_in J).
  { apply (walk_slash J R T); [|exact Fo]. intros s a v sa E St burn s2. pose proof (cut_tied s a v sa) as C. cbv zeta in C.
    fold burn s2 in C. destruct (burn_staked s2 burn); intros H; apply (C H E St). }
  constructor; unfold J; auto; try (intros; assumption).
  - (* c_reward *) intros s p s' E H. pose proof H as (EM & _ & _ & (D1 & D2 & _) & _). revert E. unfold reward_from_fees. rewrite EM.
    destruct (bank_send s (m_fee MA) (m_pos MA) _) as [s1|] eqn:E1; [|discriminate].
    pose proof (pool_send_other _ _ _ _ _ H (not_eq_sym D1) E1) as H1.
    destruct (get_val s1 p); [|intros [= <-]; exact H1]. rewrite (proj1 H1). apply (pool_send_other _ _ _ _ _ H1 (not_eq_sym D2)).
  - (* c_award *) intros s a amt _. apply mint_award_pool.
  - (* c_vote *) apply (walk_vote J R T Sl Ja Sg).
  - (* c_evidence *) apply (walk_evidence J R T Sl Ja Fo Sg).
  - (* c_update *) apply (walk_update J R T). intros s p t H. exact H.
  - (* c_mature *) apply (walk_mature J R T); [|intros s k H; exact H]. intros s a v s' E St F H. exact (proj1 (finish_unstaking_tied s a v s' H E St F)).
  - (* c_ante *) intros t K s s' E H. apply ante_inv in E. rewrite (proj1 H) in E. exact (pool_send_other _ _ _ _ _ H K E).
  - (* c_handle *) intros t K s H. cbn [op_ok] in K. pose proof H as (EM & B & _ & (_ & _ & D3) & _).
    destruct (t_msg t) as [pk a amt|a|a|f to amt|f key v raw wf|f to amt act|f h raw]; cbn [msg_signer] in K.
    + apply (stake_tied s pk a amt H K).
    + apply (unstake_tied s a H).
    + apply (unjail_tied s a H).
    + cbn [handle]. destruct (bank_send s f to amt) as [s1|] eqn:E; [|exact H]. exact (pool_send_other _ _ _ _ _ H K E).
    + cbn [handle]. destruct (negb _); [exact H|]. destruct wf; [|exact H]. unfold apply_param. destruct v; exact H.
    + cbn [handle]. destruct (negb _); [exact H|]. rewrite EM. destruct (act =? 1)%N.
      * destruct (bank_send s (m_dao MA) to amt) as [s1|] eqn:E; [|exact H]. exact (pool_send_other _ _ _ _ _ H (not_eq_sym D3) E).
      * destruct (act =? 2)%N; [|exact H]. destruct (bank_burn s (m_dao MA) amt) as [s1|] eqn:E; [|exact H].
        pose proof (burn_pres _ _ _ _ B E) as B'. destruct (bal_burn _ _ _ _ (m_pool MA) E) as [_ Eb].
        bank_only (bank_burn_sets _ _ _ _ E). apply pool_bank; auto. rewrite Eb.
        destruct (beqb (m_dao MA) (m_pool MA)) eqn:Bd; [apply beqb_eq in Bd; congruence|lia].
    + cbn [handle]. destruct (negb _); exact H.
Qed.

Theorem end_block_pool s s' ups : pool_ok s -> end_block s = Some (s', ups) -> pool_ok s'.
Proof. intros H E. exact (closed_end_block _ _ pool_closed _ _ _ E H). Qed.
Theorem step_pool s o s' : pool_ok s -> op_ok o -> step s o = Some s' -> pool_ok s'.
Proof. intros H K E. exact (closed_step _ _ pool_closed s o s' K E H). Qed.
Theorem run_pool ops : forall s s', pool_ok s -> Forall op_ok ops -> run ops s = Some s' -> pool_ok s'.
Proof. intros s s' H F E. exact (closed_run _ _ pool_closed ops F s s' E H). Qed.

(* genesis: the pool account is supplied with the total genesis stake *)
Definition gsum (gvals : list (bytes * bytes * Z)) : Z := fold_right (fun g acc => snd g + acc) 0 gvals.
(* the genesis validators: fresh records with their stake, nothing else that is read here *)
Lemma genesis_fold gvals : forall s, vals_ok (vals s) ->
  (forall g, In g gvals -> aget (vals s) (g_addr g) = None) -> NoDup (map g_addr gvals) -> (forall g, In g gvals -> 0 <= snd g) ->
  let s' := fold_left genesis_validator gvals s in
  ma s' = ma s /\ accts s' = accts s /\ supply s' = supply s /\ awards s' = awards s /\ vals_ok (vals s') /\
  ssum (vals s') = ssum (vals s) + gsum gvals /\
  forall b, (forall g, In g gvals -> g_addr g <> b) -> aget (vals s') b = aget (vals s) b.
Proof.
  induction gvals as [|[[a pk] tokens] r IH]; intros s V A ND NN; cbn [fold_left].
  - unfold gsum. cbn [fold_right]. do 4 (split; [reflexivity|]). split; [exact V|]. split; [lia|auto].
  - inversion ND as [|? ? NI ND']; subst. pose proof (A _ (or_introl eq_refl)) as Ea. unfold g_addr in Ea; cbn [fst] in Ea.
    set (v := {| v_pk := pk; v_jailed := false; v_status := 2; v_tokens := tokens; v_unstime := 0 |}).
    set (s1 := genesis_validator s (a, pk, tokens)).
    assert (F : ma s1 = ma s /\ accts s1 = accts s /\ supply s1 = supply s /\ awards s1 = awards s /\ vals s1 = aset (vals s) a v).
    { unfold s1, genesis_validator. fold v. destruct (set_staked_sets (put_val s a v) a v) as (ix & ->). repeat split. }
    destruct F as (F1 & F2 & F3 & F4 & F5).
    assert (Nr : forall g, In g r -> beqb a (g_addr g) = false).
    { intros g Hg. destruct (beqb a (g_addr g)) eqn:Bq; [|reflexivity]. apply beqb_eq in Bq. destruct NI. change (g_addr (a, pk, tokens)) with a. rewrite Bq. apply in_map, Hg. }
    destruct (IH s1) as (I1 & I2 & I3 & I4 & I5 & I6 & I7); auto.
    + rewrite F5. apply vals_ok_aset; auto; [apply (NN (a, pk, tokens)); left; reflexivity|discriminate].
    + intros g Hg. rewrite F5, aget_aset, (Nr g Hg). apply A. right. exact Hg.
    + intros g Hg. apply NN. right. exact Hg.
    + split; [congruence|]. split; [congruence|]. split; [congruence|]. split; [congruence|]. split; [exact I5|]. split.
      * rewrite I6, F5, ssum_aset. unfold stkz. rewrite Ea. unfold gsum. cbn [fold_right snd]. unfold stk. cbn. lia.
      * intros b Nb. rewrite I7, F5, aget_aset by (intros g Hg; apply Nb; right; exact Hg).
        destruct (beqb a b) eqn:Bq; [|reflexivity]. apply beqb_eq in Bq. destruct (Nb (a, pk, tokens) (or_introl eq_refl)). exact Bq.
Qed.
Lemma genesis_fold_pool gvals : forall s, ma s = MA -> bank_ok s -> vals_ok (vals s) -> mods_distinct MA ->
  (forall g, In g gvals -> aget (vals s) (g_addr g) = None) -> NoDup (map g_addr gvals) ->
  (forall g, In g gvals -> 0 <= snd g) -> ssum (vals s) + gsum gvals <= bal s (m_pool MA) ->
  pool_ok (fold_left genesis_validator gvals s).
Proof.
  intros s EM B V D A ND NN L. destruct (genesis_fold gvals s V A ND NN) as (F1 & F2 & F3 & _ & F5 & F6 & _).
  split; [congruence|]. split; [unfold bank_ok; rewrite F2, F3; exact B|]. split; [exact F5|]. split; [exact D|].
  unfold bal. rewrite F2. fold (bal s (m_pool MA)). lia.
Qed.
Theorem init_chain_pool s0 gvals dao s ups : ma s0 = MA -> bank_ok s0 -> vals_ok (vals s0) -> mods_distinct MA ->
  (forall g, In g gvals -> aget (vals s0) (g_addr g) = None) -> NoDup (map g_addr gvals) ->
  (forall g, In g gvals -> 0 <= snd g) -> ssum (vals s0) + gsum gvals <= bal s0 (m_pool MA) ->
  init_chain s0 gvals dao = Some (s, ups) -> pool_ok s.
Proof.
  intros EM B V D A ND NN L E. destruct (init_chain_inv _ _ _ _ _ E) as (s2 & E2 & K).
  pose proof (c_update _ _ pool_closed _ _ _ E2 (genesis_fold_pool gvals s0 EM B V D A ND NN L)) as H2. destruct K as [->|K]; [exact H2|].
  pose proof H2 as (EM2 & B2 & _). pose proof (mint_pres _ _ _ _ B2 K) as B3. destruct (bal_mint _ _ _ _ (m_pool MA) K) as [N Eb].
  bank_only (bank_mint_sets _ _ _ _ K). apply pool_bank; auto. rewrite Eb. destruct (beqb _ _); lia.
Qed.
End Pool.
