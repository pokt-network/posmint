(* C08: handleValidatorSignature applies exactly the ring-buffer rule of RingProofs to the stored bit array,
   counter and offset of the validator - or, when the downtime threshold is crossed, resets them to the empty
   ring. With RingProofs.ring_is_sliding_window this is the "counter = misses in the sliding window" reading
   for the votes handled since the last reset. *)
From Coq Require Import List ZArith NArith Bool Lia.
From PM Require Import Base.Bytes Store.KV Store.KVProofs App.Model App.Walk App.Frames App.RingProofs.
Import ListNotations.
Local Open Scope Z_scope.

Lemma le_bytes_length n z : length (le_bytes n z) = n.
Proof. revert z; induction n as [|n IH]; intros z; simpl; auto. Qed.
Lemma le_bytes_inj n : forall x y, 0 <= x < 256 ^ Z.of_nat n -> 0 <= y < 256 ^ Z.of_nat n -> le_bytes n x = le_bytes n y -> x = y.
Proof.
  induction n as [|n IH]; intros x y Hx Hy E.
  - simpl in *. lia.
  - cbn [le_bytes] in E. injection E as E1 E2.
    rewrite Nat2Z.inj_succ, Z.pow_succ_r in Hx, Hy by lia.
    pose proof (Z.mod_pos_bound x 256 ltac:(lia)). pose proof (Z.mod_pos_bound y 256 ltac:(lia)).
    assert (x mod 256 = y mod 256) by lia.
    assert (x / 256 = y / 256).
    { apply IH; auto; split; try (apply Z.div_pos; lia); apply Z.div_lt_upper_bound; lia. }
    pose proof (Z.div_mod x 256 ltac:(lia)). pose proof (Z.div_mod y 256 ltac:(lia)). lia.
Qed.
Lemma missed_key_inj a i j : 0 <= i < 256 ^ 8 -> 0 <= j < 256 ^ 8 -> missed_key a i = missed_key a j -> i = j.
Proof. unfold missed_key. intros Hi Hj E. apply app_inv_head in E. apply (le_bytes_inj 8); auto. Qed.

Lemma missed_key_inj2 a b i j : length a = length b -> 0 <= i < 256 ^ 8 -> 0 <= j < 256 ^ 8 ->
  missed_key a i = missed_key b j -> a = b /\ i = j.
Proof.
  unfold missed_key. intros L Hi Hj E.
  assert (A : a = b).
  { pose proof (f_equal (firstn (length a)) E) as F. rewrite firstn_app, Nat.sub_diag, firstn_all in F. cbn [firstn] in F.
    rewrite app_nil_r in F. rewrite L, firstn_app, Nat.sub_diag, firstn_all in F. cbn [firstn] in F. rewrite app_nil_r in F. exact F. }
  subst b. split; [reflexivity|]. apply app_inv_head in E. apply (le_bytes_inj 8); auto.
Qed.

(* the validator's ring, read from the state *)
Definition bit_at (m : amap bool) (a : bytes) (i : Z) : bool := match aget m (missed_key a i) with Some b => b | None => false end.
Definition ring_of (m : amap bool) (a : bytes) (si : signinfo) : ring :=
  (fun i => bit_at m a (Z.of_nat i), si_missed si, Z.to_nat (si_offset si)).
Definition ring_eq (W : nat) (r1 r2 : ring) : Prop :=
  let '(b1, c1, o1) := r1 in let '(b2, c2, o2) := r2 in c1 = c2 /\ o1 = o2 /\ forall i, (i < W)%nat -> b1 i = b2 i.

(* the (bits, counter) update at the head of handle_signature ([ring_update], App/Walk.v) IS ring_step *)
Lemma bit_update_is_ring_step m a si w sg : 0 < w < 256 ^ 8 -> 0 <= si_offset si ->
  ring_eq (Z.to_nat w)
    (ring_of (fst (ring_update m a si w sg)) a
             {| si_start := si_start si; si_offset := si_offset si + 1; si_jailed_until := si_jailed_until si;
                si_tomb := si_tomb si; si_missed := snd (ring_update m a si w sg) |})
    (ring_step (Z.to_nat w) (ring_of m a si) (negb sg)).
Proof.
  intros Hw Ho. unfold ring_update. cbv zeta. fold (bit_at m a (Z.rem (si_offset si) w)).
  assert (Ei : Z.rem (si_offset si) w = Z.of_nat (Z.to_nat (si_offset si) mod Z.to_nat w)).
  { rewrite Z.rem_mod_nonneg by lia. rewrite Nat2Z.inj_mod, !Z2Nat.id by lia. reflexivity. }
  assert (Ri : 0 <= Z.rem (si_offset si) w < 256 ^ 8).
  { rewrite Z.rem_mod_nonneg by lia. pose proof (Z.mod_pos_bound (si_offset si) w ltac:(lia)). lia. }
  unfold ring_step, ring_of. cbn [si_missed si_offset].
  assert (Eo : Z.to_nat (si_offset si + 1) = S (Z.to_nat (si_offset si))) by lia.
  set (ix := (Z.to_nat (si_offset si) mod Z.to_nat w)%nat) in *.
  assert (Pb : bit_at m a (Z.of_nat ix) = bit_at m a (Z.rem (si_offset si) w)) by (rewrite Ei; reflexivity).
  rewrite Pb.
  assert (Upd : forall x i, (i < Z.to_nat w)%nat ->
            bit_at (aset m (missed_key a (Z.rem (si_offset si) w)) x) a (Z.of_nat i) = upd (fun i => bit_at m a (Z.of_nat i)) ix x i).
  { intros x i Hi. unfold bit_at, upd. rewrite aget_aset.
    destruct (beqb (missed_key a (Z.rem (si_offset si) w)) (missed_key a (Z.of_nat i))) eqn:B.
    - apply beqb_eq in B. apply missed_key_inj in B; [|lia|lia]. rewrite Ei in B. apply Nat2Z.inj in B. subst i.
      rewrite Nat.eqb_refl. reflexivity.
    - destruct (Nat.eqb_spec i ix) as [->|N]; [|reflexivity]. rewrite Ei in B. rewrite beqb_refl in B. discriminate. }
  destruct (bit_at m a (Z.rem (si_offset si) w)) eqn:Pv; destruct sg; cbn [negb andb fst snd]; unfold ring_eq;
    (split; [reflexivity|split; [exact Eo|]]); intros i Hi; try reflexivity; symmetry; rewrite <- Upd by auto; reflexivity.
Qed.

Lemma cleared_bits (m : amap bool) a i :
  bit_at (filter (fun p => negb (has_prefix a (fst p) && Nat.eqb (length (fst p)) (length a + 8))) m) a i = false.
Proof.
  unfold bit_at.
  destruct (aget (filter _ m) (missed_key a i)) as [b|] eqn:E; auto.
  apply aget_in in E. apply filter_In in E. destruct E as [_ F]. cbn [fst] in F.
  assert (P : has_prefix a (missed_key a i) = true) by (apply has_prefix_app; exists (le_bytes 8 i); reflexivity).
  assert (L : Nat.eqb (length (missed_key a i)) (length a + 8) = true).
  { unfold missed_key. rewrite app_length, le_bytes_length. apply Nat.eqb_refl. }
  rewrite P, L in F. discriminate.
Qed.

(* one vote for validator a: its ring makes exactly one ring step, or is reset when it is jailed for downtime *)
Theorem handle_signature_is_ring_step s a p sg s' si :
  aget (sinfo s) a = Some si -> 0 <= si_offset si ->
  0 < p_window (pp s) < 256 ^ 8 -> handle_signature s a p sg = Some s' ->
  exists si', aget (sinfo s') a = Some si' /\
    (ring_eq (Z.to_nat (p_window (pp s))) (ring_of (missed s') a si')
             (ring_step (Z.to_nat (p_window (pp s))) (ring_of (missed s) a si) (negb sg)) \/
     (* the threshold was crossed: slashed, jailed, and the window cleared *)
     ring_eq (Z.to_nat (p_window (pp s))) (ring_of (missed s') a si') ring0).
Proof.
  intros Esi Ho Hw E. destruct (handle_signature_inv _ _ _ _ _ E) as (si0 & Esi0 & _ & K).
  rewrite Esi in Esi0. injection Esi0 as <-. cbv zeta in K.
  pose proof (bit_update_is_ring_step (missed s) a si (p_window (pp s)) sg Hw Ho) as R.
  destruct (ring_update (missed s) a si (p_window (pp s)) sg) as [mi ctr] eqn:EM. cbn [fst snd] in R, K.
  destruct K as [->|(y & x & Ey & Ej & ->)]; eexists; cbn [sinfo missed set_sign].
  - rewrite aget_aset. rewrite beqb_refl. split; [reflexivity|left; exact R].
  - (* slashing and jailing touch neither the signing infos nor the bit arrays *)
    assert (Fy : (sinfo y, missed y) = (sinfo s, mi))
      by (revert Ey; apply (fr_slash _ (fun t => (sinfo t, missed t))); reflexivity).
    assert (F : (sinfo x, missed x) = (sinfo y, missed y))
      by (revert Ej; apply (fr_jail _ (fun t => (sinfo t, missed t))); reflexivity).
    rewrite Fy in F.
    injection F as F1 F2. rewrite F1, F2, aget_aset. rewrite beqb_refl. split; [reflexivity|right].
    unfold ring_eq, ring_of, ring0. cbn [si_missed si_offset]. split; [reflexivity|split; [reflexivity|]].
    intros i _. apply cleared_bits.
Qed.
