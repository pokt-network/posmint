(* C05 / C06, the converse of IndexProofs: in every reachable state every validator that is staked and
   not jailed IS in the power index, under the key of its current stake. Together with the soundness
   this is "the power index lists EXACTLY the staked, unjailed validators under a key matching their
   current stake". Premise (visible): validator addresses are well-formed byte strings (< 256 per
   byte) - true of every address that enters through a transaction or the genesis file. It is used where
   two rank keys are told apart by their addresses, and asked of a transaction only for a first stake:
   every later message finds the address among the validators. *)
From Coq Require Import List ZArith NArith Bool Lia.
From PM Require Import Base.Bytes Store.KV Store.KVProofs App.Model App.Walk App.KeyProofs App.IndexProofs.
Import ListNotations.
Local Open Scope Z_scope.

Lemma inv_bytes_inj a : forall b, wf_bytes a -> wf_bytes b -> inv_bytes a = inv_bytes b -> a = b.
Proof.
  induction a as [|x a IH]; intros [|y b] Wa Wb E; try discriminate; auto.
  apply Forall_cons_iff in Wa. apply Forall_cons_iff in Wb. destruct Wa as [Hx Wa], Wb as [Hy Wb].
  change (inv_bytes (x :: a)) with ((255 - x)%N :: inv_bytes a) in E. change (inv_bytes (y :: b)) with ((255 - y)%N :: inv_bytes b) in E.
  pose proof (f_equal (hd 0%N) E) as E1. pose proof (f_equal (@tl _) E) as E2. cbn [hd tl] in E1, E2.
  assert (x = y) by lia. subst. f_equal. apply IH; auto.
Qed.
Lemma rank_key_addr_inj t1 a1 t2 a2 : wf_bytes a1 -> wf_bytes a2 -> rank_key t1 a1 = rank_key t2 a2 -> a1 = a2.
Proof.
  intros W1 W2 E. unfold rank_key in E.
  assert (L : length (be_bytes 8 (power_of t1)) = length (be_bytes 8 (power_of t2))) by (rewrite !be_bytes_length; reflexivity).
  assert (E2 : inv_bytes a1 = inv_bytes a2).
  { revert E L. generalize (be_bytes 8 (power_of t1)) (be_bytes 8 (power_of t2)). intros p q.
    revert q. induction p as [|x p IH]; intros [|y q] E L; simpl in *; try discriminate; auto.
    injection E as _ E. apply (IH q); auto. }
  apply inv_bytes_inj; auto.
Qed.

Definition icomp (V : amap validator) (P : amap bytes) : Prop :=
  asorted V /\ asorted P /\ (forall a v, aget V a = Some v -> wf_bytes a) /\
  forall a v, aget V a = Some v -> v_status v = 2%N -> v_jailed v = false -> aget P (rank_key (v_tokens v) a) = Some a.
(* ... for every validator but x *)
Definition icompx (x : bytes) (V : amap validator) (P : amap bytes) : Prop :=
  asorted V /\ asorted P /\ (forall a v, aget V a = Some v -> wf_bytes a) /\
  forall a v, a <> x -> aget V a = Some v -> v_status v = 2%N -> v_jailed v = false -> aget P (rank_key (v_tokens v) a) = Some a.
Definition idx_complete (s : state) : Prop := icomp (vals s) (powidx s).

Lemma icomp_weaken x V P : icomp V P -> icompx x V P.
Proof. intros (SV & SP & W & H). split; [auto|]. split; [auto|]. split; [auto|]. intros a v _. apply H. Qed.
(* deleting one of x's keys cannot remove anybody else's entry *)
Lemma icompx_del x V P t : wf_bytes x -> icompx x V P -> icompx x V (adel P (rank_key t x)).
Proof.
  intros Wx (SV & SP & W & H). split; auto. split; [apply adel_sorted; auto|]. split; auto.
  intros a v N E St J. rewrite aget_adel by auto. destruct (beqb (rank_key t x) (rank_key (v_tokens v) a)) eqn:B; [|apply H; auto].
  apply beqb_eq in B. apply rank_key_addr_inj in B; auto; [congruence|eapply W; eauto].
Qed.
(* inserting one of x's keys cannot overwrite anybody else's entry *)
Lemma icompx_ins x V P t : wf_bytes x -> icompx x V P -> icompx x V (aset P (rank_key t x) x).
Proof.
  intros Wx (SV & SP & W & H). split; auto. split; [apply aset_sorted; auto|]. split; auto.
  intros a v N E St J. rewrite aget_aset. destruct (beqb (rank_key t x) (rank_key (v_tokens v) a)) eqn:B; [|apply H; auto].
  apply beqb_eq in B. apply rank_key_addr_inj in B; auto; [congruence|eapply W; eauto].
Qed.
Lemma icompx_put x V P v1 : wf_bytes x -> icompx x V P -> icompx x (aset V x v1) P.
Proof.
  intros Wx (SV & SP & W & H). split; [apply aset_sorted; auto|]. split; auto. split.
  - intros a v. rewrite aget_aset. destruct (beqb x a) eqn:B; [apply beqb_eq in B; subst; auto|apply W].
  - intros a v N. rewrite aget_aset. destruct (beqb x a) eqn:B; [apply beqb_eq in B; congruence|]. apply H; auto.
Qed.
Lemma icompx_delval x V P : icompx x V P -> icompx x (adel V x) P.
Proof.
  intros (SV & SP & W & H). split; [apply adel_sorted; auto|]. split; auto. split.
  - intros a v. rewrite aget_adel by auto. destruct (beqb x a); [discriminate|apply W].
  - intros a v N. rewrite aget_adel by auto. destruct (beqb x a); [discriminate|]. apply H; auto.
Qed.
Lemma icompx_close x V P : icompx x V P ->
  (forall v, aget V x = Some v -> v_status v = 2%N -> v_jailed v = false -> aget P (rank_key (v_tokens v) x) = Some x) -> icomp V P.
Proof.
  intros (SV & SP & W & H) Hx. split; auto. split; auto. split; auto. intros a v E St J.
  destruct (list_eq_dec N.eq_dec a x) as [->|N]; [apply Hx; auto|apply H; auto].
Qed.

Definition idx_exact (s : state) : Prop := idx_sound s /\ idx_complete s.
Definition op_wf (o : op) : Prop := match o with OTx t => wf_bytes (msg_signer (t_msg t)) | _ => True end.

Lemma wf_of s a v : idx_complete s -> get_val s a = Some v -> wf_bytes a.
Proof. intros (_ & _ & W & _) E. eapply W; eauto. Qed.

(* x's own clause comes back when its record is written: one that is not eligible, or one whose key is inserted *)
Lemma put_out x V P v1 : wf_bytes x -> icompx x V P -> (v_status v1 <> 2%N \/ v_jailed v1 = true) -> icomp (aset V x v1) P.
Proof.
  intros Wx X C. apply (icompx_close x); [apply icompx_put; auto|].
  intros w. rewrite aget_aset_same. intros [= <-] St J. destruct C; congruence.
Qed.
Lemma set_staked_ic s a v1 : wf_bytes a -> icompx a (vals s) (powidx s) -> get_val s a = Some v1 ->
  idx_complete (set_staked s a v1).
Proof.
  unfold get_val, set_staked. intros Wa X E. destruct (v_jailed v1 || negb (v_status v1 =? 2)%N) eqn:C.
  - apply (icompx_close a); [exact X|]. intros w Ew St J. rewrite E in Ew. injection Ew as <-.
    rewrite J, St in C. discriminate.
  - change (icomp (vals s) (aset (powidx s) (rank_key (v_tokens v1) a) a)).
    apply (icompx_close a); [apply icompx_ins; auto|]. intros w Ew _ _. rewrite E in Ew. injection Ew as <-.
    apply aget_aset_same.
Qed.

(* every record update: drop the old key, write the record, insert the new key if eligible *)
Lemma reindex_ic s a v v1 : idx_complete s -> get_val s a = Some v -> idx_complete (reindexed s a v v1).
Proof.
  intros H E. pose proof (wf_of s a v H E) as Wa. apply set_staked_ic; [exact Wa| |apply get_put_val].
  apply icompx_put, icompx_del, icomp_weaken; auto.
Qed.
Lemma unindex_ic s a v v1 : idx_complete s -> get_val s a = Some v -> (v_status v1 <> 2%N \/ v_jailed v1 = true) ->
  idx_complete (put_val (del_staked s a v) a v1).
Proof. intros H E C. pose proof (wf_of s a v H E) as Wa. apply put_out; [exact Wa| |exact C]. apply icompx_del, icomp_weaken; auto. Qed.
(* the same without dropping a key: a stale entry does no harm here *)
Lemma put_set_ic s a v1 : idx_complete s -> wf_bytes a -> idx_complete (set_staked (put_val s a v1) a v1).
Proof. intros H Wa. apply set_staked_ic; [exact Wa| |apply get_put_val]. apply icompx_put, icomp_weaken; auto. Qed.
Lemma put_ineligible_ic s a v1 : idx_complete s -> wf_bytes a -> (v_status v1 <> 2%N \/ v_jailed v1 = true) ->
  idx_complete (put_val s a v1).
Proof. intros H Wa C. apply put_out; [exact Wa| |exact C]. apply icomp_weaken, H. Qed.

Lemma force_unstake_ic s a v s' : idx_complete s -> get_val s a = Some v -> force_unstake s a v = Some s' -> idx_complete s'.
Proof.
  intros H E F. destruct (force_unstake_inv _ _ _ _ F) as (ac & su & ->).
  apply (unindex_ic s a v); [exact H|exact E|left; discriminate].
Qed.
Lemma jail_ic s a s' : idx_complete s -> jail s a = Some s' -> idx_complete s'.
Proof.
  intros H Ej. destruct (jail_inv _ _ _ Ej) as (v & E & _ & ->).
  exact (unindex_ic s a v (with_jailed v true) H E (or_intror eq_refl)).
Qed.
Lemma finish_unstaking_ic s a v s' : idx_complete s -> finish_unstaking s a v = Some s' -> idx_complete s'.
Proof.
  intros H F. destruct (finish_unstaking_inv _ _ _ _ F) as (ac & su & _ & ->). change (icomp (adel (vals s) a) (powidx s)).
  apply (icompx_close a); [apply icompx_delval, icomp_weaken, H|].
  intros w. rewrite aget_adel by apply H. rewrite beqb_refl. discriminate.
Qed.

(* the three staking messages; only a first stake brings in an address the state does not vouch for *)
Lemma stake_ic s pk a amt : wf_bytes a -> idx_complete s -> idx_complete (hres_state (handle s (MStake pk a amt))).
Proof.
  intros Wa H. destruct (stake_inv s pk a amt) as [->|(v0 & s1 & G & St0 & _ & _ & K)]; [exact H|].
  assert (H1 : idx_complete s1).
  { destruct G as [[_ ->]|(_ & _ & ->)]; [exact H|]. apply put_ineligible_ic; auto. left. rewrite St0. discriminate. }
  destruct K as [[_ ->]|(s2 & E & K)]; [exact H1|]. bank_only (bank_send_sets _ _ _ _ _ E).
  destruct K as [[-> _]|[-> _]]; (apply put_set_ic; [exact H1|exact Wa]).
Qed.
Lemma unstake_ic s a : idx_complete s -> idx_complete (hres_state (handle s (MUnstake a))).
Proof.
  intros H. cbn [handle]. destruct (get_val s a) as [v|] eqn:E; [|exact H]. destruct (negb _); [exact H|].
  destruct (_ <? _); [exact H|]. apply (unindex_ic s a v); [exact H|exact E|left; discriminate].
Qed.
Lemma unjail_ic s a : idx_complete s -> idx_complete (hres_state (handle s (MUnjail a))).
Proof.
  intros H. destruct (unjail_inv s a) as [->|(v & si & E & _ & _ & _ & _ & _ & _ & ->)]; [exact H|].
  exact (put_set_ic s a _ H (wf_of s a v H E)).
Qed.

Theorem complete_closed : closed op_wf (fun s s' => idx_complete s -> idx_complete s').
Proof.
  set (J := fun s s' => idx_complete s -> idx_complete s').
  assert (R : forall s, J s s) by (intros s H; exact H).
  assert (T : forall s1 s2 s3, J s1 s2 -> J s2 s3 -> J s1 s3) by (intros s1 s2 s3 A B H; exact (B (A H))).
  destruct (bank_moves_in J (fun s ac su H => H)) as (Sd & Mi & Bu).
  assert (Pa : forall s k v raw, J s (apply_param s k v raw)) by (intros s k v raw H; unfold apply_param; destruct v; exact H).
  assert (Sg : sign_in J) by (intros s si mi H; exact H).
  assert (Fo : force_in J) by (intros s a v s' E F H; exact (force_unstake_ic _ _ _ _ H E F)).
  assert (Ja : jail_in J) by (intros s a s' E H; exact (jail_ic _ _ _ H E)).
  assert (Sl : slash_in J).
  { apply (walk_slash J R T); [|exact Fo]. intros s a v sa E _ burn s2.
    assert (K : J s s2) by (intros H; apply reindex_ic; auto).
    destruct (burn_staked s2 burn) eqn:E3; [|exact K]. intros H. bank_only (burn_staked_sets _ _ _ E3). exact (K H). }
  constructor; auto; try (unfold J; intros; assumption).
  - (* c_reward *) apply (walk_reward J R T Sd).
  - (* c_award *) intros s a amt _. apply (walk_mint_award J R T Sd Mi).
  - (* c_vote *) apply (walk_vote J R T Sl Ja Sg).
  - (* c_evidence *) apply (walk_evidence J R T Sl Ja Fo Sg).
  - (* c_update *) apply (walk_update J R T). intros s p t H. exact H.
  - (* c_mature *) apply (walk_mature J R T); [|intros s k H; exact H]. intros s a v s' _ _ E H. exact (finish_unstaking_ic _ _ _ _ H E).
  - (* c_ante *) intros t _ s s'. apply (walk_ante J R T Sd).
  - (* c_handle *) intros t W s. cbn [op_wf] in W. destruct (t_msg t) as [pk a amt|a|a|f to amt|f key v raw wf|f to amt act|f h raw];
      try (apply (walk_handle J R T Sd Bu Pa); discriminate).
    + exact (stake_ic s pk a amt W).
    + exact (unstake_ic s a).
    + exact (unjail_ic s a).
Qed.

Theorem run_exact ops : forall s s', idx_exact s -> Forall op_wf ops -> run ops s = Some s' -> idx_exact s'.
Proof.
  intros s s' [HS HC] F E. split; [exact (run_is ops s s' HS E)|exact (closed_run _ _ complete_closed ops F s s' E HC)].
Qed.

Lemma genesis_validator_ic s g : idx_complete s -> wf_bytes (g_addr g) -> idx_complete (genesis_validator s g).
Proof.
  destruct g as [[a pk] tokens]. unfold genesis_validator, g_addr. cbn [fst]. intros H Wa.
  exact (put_set_ic s a {| v_pk := pk; v_jailed := false; v_status := 2; v_tokens := tokens; v_unstime := 0 |} H Wa).
Qed.
Theorem init_chain_exact s0 gvals dao s ups : idx_exact s0 -> NoDup (map g_addr gvals) ->
  (forall g, In g gvals -> aget (vals s0) (g_addr g) = None) -> (forall g, In g gvals -> wf_bytes (g_addr g)) ->
  init_chain s0 gvals dao = Some (s, ups) -> idx_exact s.
Proof.
  intros [HS HC] ND A W E. split; [eapply init_chain_is; eauto|].
  destruct (init_chain_inv _ _ _ _ _ E) as (s2 & E2 & K).
  assert (H1 : idx_complete (fold_left genesis_validator gvals s0)).
  { clear E E2 ND A HS. revert s0 HC. induction gvals as [|g r IH]; simpl; auto. intros s0 HC.
    apply IH; [intros g' Hg'; apply W; right; auto|]. apply genesis_validator_ic; auto. apply W. left; auto. }
  pose proof (c_update _ _ complete_closed _ _ _ E2 H1) as H2.
  destruct K as [->|K]; [exact H2|]. bank_only (bank_mint_sets _ _ _ _ K). exact H2.
Qed.
(* C05 / C06: index membership is EXACTLY "staked and not jailed, under the key of the current stake" *)
Theorem index_exact_reading s a v : idx_exact s -> get_val s a = Some v ->
  (aget (powidx s) (rank_key (v_tokens v) a) = Some a <-> (v_status v = 2%N /\ v_jailed v = false)).
Proof.
  intros [HS HC] E. split.
  - intros Hk. destruct (indexed_is_staked_unjailed s _ a HS Hk) as (w & Ew & St & J & _).
    rewrite E in Ew. injection Ew as <-. auto.
  - intros [St J]. destruct HC as (_ & _ & _ & H). apply H; auto.
Qed.
