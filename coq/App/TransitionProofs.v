(* C06: a validator's status changes only along the legal transitions, and each kind of change has
   exactly one kind of cause. For every step of every history and every address a, either the status of a is unchanged or
     - the step is a delivered stake transaction of a itself, a was unknown or unstaked, it is staked afterwards and the
       staked amount is at least the minimum stake;
     - the step is a delivered begin-unstake transaction of a itself, a was staked and is unstaking afterwards;
     - the step is an EndBlock, a was unstaking and its record is gone afterwards (released);
     - the step is a BeginBlock, a had a record and is unstaked afterwards (forced unstake: slash below the minimum,
       double sign).
   Awards, burn requests, commits and every other transaction never change anybody's status. *)
From Coq Require Import List ZArith NArith Bool Lia.
From PM Require Import Base.Bytes Store.KV Store.KVProofs App.Model App.Walk.
Import ListNotations.
Local Open Scope Z_scope.

Definition st (s : state) (a : bytes) : option N := option_map v_status (get_val s a).
Definition sv (s : state) : Prop := asorted (vals s).

Lemma st_frame s s' : vals s' = vals s -> forall b, st s' b = st s b.
Proof. intros E b. unfold st, get_val. rewrite E. reflexivity. Qed.
Lemma st_get s a v : get_val s a = Some v -> st s a = Some (v_status v).
Proof. unfold st. intros ->. reflexivity. Qed.
Lemma st_put s a v1 b : st (put_val s a v1) b = if beqb a b then Some (v_status v1) else st s b.
Proof.
  unfold st, get_val. cbn [vals put_val set_vals]. rewrite aget_aset. destruct (beqb a b); reflexivity.
Qed.
Lemma sv_put s a v1 : sv s -> sv (put_val s a v1).
Proof. intros S. unfold sv. cbn [vals put_val set_vals]. apply aset_sorted; auto. Qed.
Lemma sv_frame s s' : vals s' = vals s -> sv s -> sv s'.
Proof. unfold sv. intros ->. auto. Qed.

(* the validators stay sorted and every status is unchanged or changes as R allows; under [sv s] a preorder when R
   is transitive *)
Definition changes (R : bytes -> option N -> option N -> Prop) (s s' : state) : Prop :=
  sv s' /\ forall b, st s' b = st s b \/ R b (st s b) (st s' b).
Section Changes.
Variable R : bytes -> option N -> option N -> Prop.
Lemma changes_refl s : sv s -> changes R s s.
Proof. intros S. split; auto. Qed.
Lemma changes_trans : (forall b x y z, R b x y -> R b y z -> R b x z) ->
  forall s1 s2 s3, (sv s1 -> changes R s1 s2) -> (sv s2 -> changes R s2 s3) -> sv s1 -> changes R s1 s3.
Proof.
  intros HR s1 s2 s3 H12 H23 S1. destruct (H12 S1) as [S2 H1]. destruct (H23 S2) as [S3 H2]. split; [exact S3|].
  intros b. destruct (H1 b) as [E1|C1]; destruct (H2 b) as [E2|C2].
  - left. congruence.
  - right. rewrite <- E1. exact C2.
  - right. rewrite E2. exact C1.
  - right. exact (HR _ _ _ _ C1 C2).
Qed.
Lemma changes_frame s s' : vals s' = vals s -> sv s -> changes R s s'.
Proof. intros E S. split; [eapply sv_frame; eauto|]. intros b. left. apply st_frame; auto. Qed.
(* one record written: sx is s1 with the record of a replaced, where s1 differs from s at most at a *)
Lemma changes_put s s1 a v1 sx : sv s1 -> (forall b, beqb a b = false -> st s1 b = st s b) ->
  vals sx = vals (put_val s1 a v1) -> st s a = Some (v_status v1) \/ R a (st s a) (Some (v_status v1)) -> changes R s sx.
Proof.
  intros S1 T E H. split; [eapply sv_frame; [exact E|apply sv_put; exact S1]|].
  intros b. rewrite (st_frame _ _ E), st_put. destruct (beqb a b) eqn:Bq; [|left; apply T, Bq].
  apply beqb_eq in Bq; subst b. destruct H as [H|H]; [left; symmetry; exact H|right; exact H].
Qed.
Lemma changes_del s a sx : sv s -> vals sx = adel (vals s) a -> R a (st s a) None -> changes R s sx.
Proof.
  intros S E H. split; [unfold sv; rewrite E; apply adel_sorted; exact S|].
  intros b. unfold st, get_val. rewrite E, aget_adel by exact S. destruct (beqb a b) eqn:Bq; [|left; reflexivity].
  apply beqb_eq in Bq; subst b. right. exact H.
Qed.
End Changes.

Definition forced : state -> state -> Prop := changes (fun _ x y => (exists k : N, x = Some k) /\ y = Some 0%N).

Lemma force_unstake_forced s a v s' : get_val s a = Some v -> force_unstake s a v = Some s' -> sv s -> forced s s'.
Proof.
  intros E F S. destruct (force_unstake_inv _ _ _ _ F) as (ac & su & ->).
  apply (changes_put _ s s a (with_status (with_tokens v 0) 0)); [exact S|reflexivity|reflexivity|].
  right. rewrite (st_get _ _ _ E). eauto.
Qed.
Theorem begin_block_forced : forall s h t prop votes evs s',
  sv s -> begin_block s h t prop votes evs = Some s' -> forced s s'.
Proof.
  set (J := fun s s' => sv s -> forced s s').
  enough (K : forall s h t prop votes evs s', begin_block s h t prop votes evs = Some s' -> J s s')
    by (intros s h t prop votes evs s' S E; exact (K _ _ _ _ _ _ _ E S)).
  assert (R : forall s, J s s) by exact (changes_refl _).
  assert (T : forall s1 s2 s3, J s1 s2 -> J s2 s3 -> J s1 s3).
  { refine (changes_trans _ _). intros b x y z [K _] [_ Z]. split; assumption. }
  assert (Fr : forall s s', vals s' = vals s -> J s s') by exact (changes_frame _).
  destruct (bank_moves_in J) as (Send & Mint & _); [intros s ac su; apply Fr; reflexivity|].
  assert (Cut : cut_in J).
  { intros s a v sa E _ burn s2.
    assert (K : J s s2).
    { intros S. apply (changes_put _ s s a (with_tokens v (v_tokens v - burn))); [exact S|reflexivity| |].
      - exact (set_staked_vals (put_val (del_staked s a v) a _) a _).
      - left. exact (st_get _ _ _ E). }
    destruct (burn_staked s2 burn) eqn:E3; [|exact K]. bank_only (burn_staked_sets _ _ _ E3). exact K. }
  assert (Jail : jail_in J).
  { intros s a s' Ej S. destruct (jail_inv _ _ _ Ej) as (v & E & _ & ->).
    apply (changes_put _ s s a (with_jailed v true)); [exact S|reflexivity|reflexivity|left; exact (st_get _ _ _ E)]. }
  assert (Sign : sign_in J) by (intros s si mi; apply Fr; reflexivity).
  pose proof (walk_slash J R T Cut force_unstake_forced) as Slash.
  intros s h t prop votes evs s'. apply (walk_begin_block J R T); auto; try (intros; apply Fr; reflexivity).
  - apply (walk_reward J R T Send).
  - intros x a amt _. apply (walk_mint_award J R T Send Mint).
  - apply (walk_vote J R T Slash Jail Sign).
  - apply (walk_evidence J R T Slash Jail force_unstake_forced Sign).
Qed.

Definition matured : state -> state -> Prop := changes (fun _ x y => x = Some 1%N /\ y = None).

Lemma finish_unstaking_matured s a v s' :
  get_val s a = Some v -> v_status v = 1%N -> finish_unstaking s a v = Some s' -> sv s -> matured s s'.
Proof.
  intros E St F S. destruct (finish_unstaking_inv _ _ _ _ F) as (ac & su & _ & ->).
  apply (changes_del _ s a); [exact S|reflexivity|].
  rewrite (st_get _ _ _ E), St. auto.
Qed.
Theorem end_block_matured s s' ups : sv s -> end_block s = Some (s', ups) -> matured s s'.
Proof.
  set (J := fun s s' => sv s -> matured s s').
  assert (R : forall s, J s s) by exact (changes_refl _).
  assert (T : forall s1 s2 s3, J s1 s2 -> J s2 s3 -> J s1 s3).
  { refine (changes_trans _ _). intros b x y z [_ Y] [Y' _]. congruence. }
  assert (Fr : forall s s', vals s' = vals s -> J s s') by exact (changes_frame _).
  intros S. unfold end_block. destruct (update_tm_validators s) as [[s1 u]|] eqn:E; [|discriminate].
  destruct (unstake_mature s1) as [s2|] eqn:E2; [|discriminate]. intros [= <- _]. revert S. apply (T s s1 s2).
  - apply (walk_update J R T) with (2 := E). intros x p t. apply Fr. reflexivity.
  - apply (walk_mature J R T) with (3 := E2); [exact finish_unstaking_matured|]. intros x k. apply Fr. reflexivity.
Qed.

(* what a delivered message may do to the status of b *)
Definition msg_change (m : msg) (minstake : Z) (before after : option N) (b : bytes) : Prop :=
  match m with
  | MStake _ a amt => b = a /\ (before = None \/ before = Some 0%N) /\ after = Some 2%N /\ minstake <= amt
  | MUnstake a => b = a /\ before = Some 2%N /\ after = Some 1%N
  | _ => False
  end.
Lemma keep s m : sv s -> sv s /\ forall b, st s b = st s b \/ msg_change m (p_min_stake (pp s)) (st s b) (st s b) b.
Proof. intros S. split; auto. Qed.
Lemma handle_tr s m : sv s -> msg_basic_ok m = true ->
  changes (fun b x y => msg_change m (p_min_stake (pp s)) x y b) s (hres_state (handle s m)).
Proof.
  intros S BO.
  assert (Fr : (forall pk a amt, m <> MStake pk a amt) -> (forall a, m <> MUnstake a) -> (forall a, m <> MUnjail a) ->
               vals (hres_state (handle s m)) = vals s).
  { destruct (bank_moves_in (fun s s' => vals s' = vals s) (fun _ _ _ => eq_refl)) as (Send & _ & Burn).
    apply (walk_handle _ (fun _ => eq_refl) (fun _ _ _ H1 H2 => eq_trans H2 H1) Send Burn).
    intros x k v raw. unfold apply_param. destruct v; reflexivity. }
  destruct m as [pk a amt|a|a|f t amt|f key v raw wf|f t amt act|f h raw].
  4-7: apply changes_frame; [apply Fr; intros; discriminate|exact S].
  2: cbn [handle].
  - destruct (stake_inv s pk a amt) as [->|(v0 & s1 & G & St0 & _ & [Min Enough] & K)]; [apply keep; auto|].
    assert (B0 : st s a = None \/ st s a = Some 0%N).
    { unfold st. destruct G as [[-> _]|(-> & _)]; [right; cbn; congruence|left; reflexivity]. }
    (* a new validator is registered first, unstaked *)
    assert (S1 : sv s1 /\ accts s1 = accts s /\ forall b, beqb a b = false -> st s1 b = st s b).
    { destruct G as [[_ ->]|(_ & _ & ->)]; [auto|]. split; [exact (sv_put s a v0 S)|]. split; [reflexivity|].
      intros b Bq. change (st (put_val s a v0) b = st s b). rewrite st_put, Bq. reflexivity. }
    destruct S1 as (S1 & A1 & T1).
    assert (Pos : 0 < amt).
    { cbn [msg_basic_ok] in BO. apply andb_true_iff in BO. destruct BO as [_ BO]. apply Z.ltb_lt in BO. exact BO. }
    destruct K as [[E _]|(s2 & E & K)].
    { exfalso. unfold bank_send in E. destruct ((amt <? 0) || (bal s1 a <? amt)) eqn:G'; [|discriminate].
      apply orb_true_iff in G'. assert (bal s1 a = bal s a) by (unfold bal; rewrite A1; reflexivity).
      destruct G' as [G'|G']; apply Z.ltb_lt in G'; lia. }
    bank_only (bank_send_sets _ _ _ _ _ E).
    apply (changes_put _ s s1 a (with_status (with_tokens v0 (v_tokens v0 + amt)) 2)); [exact S1|exact T1| |].
    + destruct K as [[-> _]|[-> _]]; exact (set_staked_vals (put_val (set_bank s1 ac su) a _) a _).
    + right. cbn [msg_change]. auto.
  - destruct (get_val s a) as [v|] eqn:E; [|apply keep; auto].
    destruct (v_status v =? 2)%N eqn:St; cbn [negb]; [|apply keep; auto]. apply N.eqb_eq in St.
    destruct (_ <? _); [apply keep; auto|].
    apply (changes_put _ s s a (with_unstime (with_status v 1) (btime s + p_unstaking_time (pp s))));
      [exact S|reflexivity|reflexivity|].
    right. cbn [msg_change]. rewrite (st_get _ _ _ E), St. auto.
  - destruct (unjail_inv s a) as [->|(v & si & E & _ & _ & _ & _ & _ & _ & ->)]; [apply keep; auto|].
    apply (changes_put _ s s a (with_jailed v false)); [exact S|reflexivity|apply set_staked_vals|left; exact (st_get _ _ _ E)].
Qed.

Definition legal_change (s : state) (o : op) (b : bytes) (before after : option N) : Prop :=
  match o with
  | OBegin _ _ _ _ _ => (exists k, before = Some k) /\ after = Some 0%N                   (* forced unstake *)
  | OTx t => msg_signer (t_msg t) = b /\ msg_change (t_msg t) (p_min_stake (pp s)) before after b   (* its own stake / begin-unstake *)
  | OEnd => before = Some 1%N /\ after = None                                              (* released at maturity *)
  | _ => False
  end.
Theorem step_transitions s o s' b : sv s -> step s o = Some s' ->
  sv s' /\ (st s' b = st s b \/ legal_change s o b (st s b) (st s' b)).
Proof.
  intros S. destruct o as [h t p vs es|t|a amt|a sev| |]; cbn [step legal_change].
  - intros E. destruct (begin_block_forced _ _ _ _ _ _ _ S E) as [S' H]. split; auto.
  - intros [= <-]. unfold deliver_tx. destruct (negb (msg_basic_ok (t_msg t))) eqn:BO; cbn [orb]; [split; auto|].
    apply negb_false_iff in BO. destruct (_ || _); [split; auto|].
    destruct (ante s t) as [s1|] eqn:Ea; [|split; auto].
    assert (F1 : (vals s1, pp s1) = (vals s, pp s)).
    { apply (walk_ante (fun s s' => (vals s', pp s') = (vals s, pp s)) (fun _ => eq_refl) (fun _ _ _ H1 H2 => eq_trans H2 H1))
        with (2 := Ea).
      intros x f to amt x' E. bank_only (bank_send_sets _ _ _ _ _ E). reflexivity. }
    injection F1 as V1 P1.
    set (sx := dres_state _).
    assert (Hh : changes (fun b0 x y => msg_change (t_msg t) (p_min_stake (pp s1)) x y b0) s1 sx).
    { pose proof (handle_tr s1 (t_msg t) (sv_frame _ _ V1 S) BO) as Hh. unfold sx. destruct (handle s1 (t_msg t)); exact Hh. }
    destruct Hh as [Sx Hx]. split; [exact Sx|]. rewrite <- (st_frame s s1 V1 b), <- P1.
    destruct (Hx b) as [Eq|Ch]; [left; exact Eq|right]. split; [|exact Ch].
    destruct (t_msg t); cbn [msg_change msg_signer] in *; try contradiction; destruct Ch as [-> _]; reflexivity.
  - intros [= <-]. split; auto.
  - intros [= <-]. split; auto.
  - destruct (end_block s) as [[s1 u]|] eqn:E; [|discriminate]. intros [= <-].
    destruct (end_block_matured _ _ _ S E) as [S' H]. split; auto.
  - intros [= <-]. split; auto.
Qed.
(* the validators stay sorted along a history: the premise step_transitions asks of every step *)
Theorem run_keeps_sorted ops : forall s s', sv s -> run ops s = Some s' -> sv s'.
Proof.
  unfold run. induction ops as [|o r IH]; simpl; intros s s' S; [intros [= <-]; auto|].
  destruct (step s o) as [s1|] eqn:E; [|discriminate]. apply IH. exact (proj1 (step_transitions s o s1 [] S E)).
Qed.
