(* C17 over whole histories: the governance view (every parameter of every subspace, the ACL, the DAO owner,
   the upgrade plan, the raw parameter store) is changed by NO operation of the block cycle except a
   delivered change-parameter / upgrade transaction whose sender is the ACL owner of that key. *)
From Coq Require Import List ZArith NArith Bool.
From PM Require Import Base.Bytes App.Model App.Walk App.Frames App.TxProofs.
Import ListNotations.
Local Open Scope Z_scope.

Theorem gv_begin_block s h t prop votes evs s' : begin_block s h t prop votes evs = Some s' -> gov_view s' = gov_view s.
Proof. apply (fr_begin_block _ gov_view); intros; reflexivity. Qed.
Theorem gv_end_block s s' ups : end_block s = Some (s', ups) -> gov_view s' = gov_view s.
Proof. apply (fr_end_block _ gov_view); intros; reflexivity. Qed.
Lemma gv_ante s t s' : ante s t = Some s' -> gov_view s' = gov_view s.
Proof. apply (fr_ante _ gov_view); intros; reflexivity. Qed.
Lemma gv_unjail s a s' : unjail s a = Some s' -> gov_view s' = gov_view s.
Proof.
  unfold unjail. destruct (get_val s a) as [v|]; [|discriminate]. destruct (v_jailed v); [|discriminate]. intros [= <-].
  unfold set_staked. destruct (_ || _); reflexivity.
Qed.

(* the only way the governance view moves: an accepted change-param / upgrade transaction from the owner *)
Theorem params_change_only_by_owner_tx s o s' : step s o = Some s' -> gov_view s' <> gov_view s ->
  exists t s1, o = OTx t /\ ante s t = Some s1 /\ acl s1 = acl s /\
    ((exists f key v raw wf, t_msg t = MChangeParam f key v raw wf /\ beqb (owner_of (acl s) key) f = true /\ msg_signer (t_msg t) = f) \/
     (exists f h raw, t_msg t = MUpgrade f h raw /\ beqb (owner_of (acl s) [103;111;118;47;117;112;103;114;97;100;101]%N) f = true)).
Proof.
  destruct o as [h t p vs es|t|a amt|a sev| |]; cbn [step]; intros E Hne.
  - destruct Hne. eapply gv_begin_block; eauto.
  - injection E as <-. unfold deliver_tx in Hne. destruct (_ || _); [destruct Hne; reflexivity|].
    destruct (ante s t) as [s1|] eqn:Ea; [|destruct Hne; reflexivity].
    pose proof (gv_ante _ _ _ Ea) as G1. assert (A1 : acl s1 = acl s) by (unfold gov_view in G1; congruence).
    exists t, s1. split; [reflexivity|]. split; [exact Ea|]. split; [exact A1|]. rewrite <- A1. rewrite <- G1 in Hne.
    (* every handler but the two that set parameters leaves the view alone, and those two only when they accept *)
    assert (H : dres_state (match handle s1 (t_msg t) with HOk x => DOk x | HErr x => DHandlerErr x end) = hres_state (handle s1 (t_msg t)))
      by (destruct (handle s1 (t_msg t)); reflexivity).
    rewrite H in Hne. clear H.
    destruct (t_msg t) as [| | | |f key v raw wf| |f hh raw] eqn:Em;
      try (destruct Hne; apply (fr_handle _ gov_view); intros; try reflexivity; congruence); cbn [handle] in Hne.
    + left. exists f, key, v, raw, wf. destruct (beqb (owner_of (acl s1) key) f); [auto|destruct Hne; reflexivity].
    + right. exists f, hh, raw. destruct (beqb _ f); [auto|destruct Hne; reflexivity].
  - injection E as <-. destruct Hne. reflexivity.
  - injection E as <-. destruct Hne. reflexivity.
  - destruct (end_block s) as [[s1 u]|] eqn:Ee; [|discriminate]. injection E as <-. destruct Hne. eapply gv_end_block; eauto.
  - injection E as <-. destruct Hne. reflexivity.
Qed.

(* an ACL that lists a key more than once: the FIRST entry names the owner (ACL.GetOwner's loop) *)
Lemma owner_of_first_entry l1 k a l2 :
  (forall p, In p l1 -> fst p <> k) -> owner_of (l1 ++ (k, a) :: l2) k = a.
Proof.
  intros H. unfold owner_of. induction l1 as [|q r IH]; cbn [app find fst].
  - replace (beqb k k) with true by (symmetry; apply beqb_eq; reflexivity). reflexivity.
  - destruct (beqb (fst q) k) eqn:E.
    + apply beqb_eq in E. exfalso. apply (H q); [left; reflexivity|exact E].
    + apply IH. intros p Hp. apply H. right. exact Hp.
Qed.
Lemma owner_of_ignores_later_entries l1 k a l2 l2' :
  (forall p, In p l1 -> fst p <> k) -> owner_of (l1 ++ (k, a) :: l2) k = owner_of (l1 ++ (k, a) :: l2') k.
Proof. intros H. rewrite !owner_of_first_entry by exact H. reflexivity. Qed.
