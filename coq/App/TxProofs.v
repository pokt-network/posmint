(* C03 / C11 / C17 / C07 / C10: statements about single steps of the application model,
   read off the modelled order of checks and writes. *)
From Coq Require Import List ZArith NArith Bool Lia.
From PM Require Import Base.Bytes Store.KV Store.KVProofs Num.IntModel Num.DecModel Num.DecProofs App.Model
  App.Walk App.Frames App.BankProofs.
Import ListNotations.
Local Open Scope Z_scope.

(* C03: what acceptance by the ante handler implies *)
Definition key_used (s : state) (t : tx) : option bytes :=
  match t_attached t with
  | Some ka => Some ka
  | None => aget (haspk s) (msg_signer (t_msg t))
  end.
Theorem ante_accept s t s' : ante s t = Some s' ->
  exists ka, key_used s t = Some ka /\
    ka = msg_signer (t_msg t) /\                       (* the key belongs to the declared signer *)
    t_signed_by t = ka /\ t_mutated t = false /\       (* the signature verifies over the current sign doc *)
    t_in_index t = false /\                            (* not a replay *)
    required_fee s (t_gov_fee t) (t_msg t) <= t_fee t /\  (* pays at least the required fee *)
    t_memo_len t <= a_max_memo (ap s) /\
    bank_send s (msg_signer (t_msg t)) (m_fee (ma s)) (t_fee t) = Some s'.  (* from the signer's own balance *)
Proof.
  unfold ante, key_used. destruct (Z.ltb_spec (a_max_memo (ap s)) (t_memo_len t)) as [|Hm]; [discriminate|].
  match goal with |- context[match ?X with Some ka => _ | None => None end] => destruct X as [ka|] eqn:EK end; [|discriminate].
  destruct (beqb ka (msg_signer (t_msg t))) eqn:E1; simpl; [|discriminate]. apply beqb_eq in E1.
  destruct (t_in_index t) eqn:E2; [discriminate|].
  destruct (Z.ltb_spec (t_fee t) (required_fee s (t_gov_fee t) (t_msg t))) as [|Hf]; [discriminate|].
  destruct (_ && _); [discriminate|].
  destruct (beqb (t_signed_by t) ka) eqn:E3; simpl; [|discriminate]. apply beqb_eq in E3.
  destruct (t_mutated t) eqn:E4; [discriminate|].
  destruct (aget (accts s) (msg_signer (t_msg t))) as [b|]; [|discriminate].
  destruct (b <? t_fee t); [discriminate|]. intros E. exists ka. repeat split; auto.
Qed.
(* a signature by any other key, or any change to a signed field, is rejected *)
Theorem ante_rejects_forgery s t : (forall ka, key_used s t = Some ka -> t_signed_by t <> ka) \/ t_mutated t = true ->
  ante s t = None.
Proof.
  intros H. destruct (ante s t) as [s'|] eqn:E; auto.
  destruct (ante_accept _ _ _ E) as (ka & K & _ & Sg & Mu & _). destruct H as [H|H]; [exfalso; apply (H ka K Sg)|congruence].
Qed.
(* whatever key is used - carried in the signature or looked up from the account record (which a genesis file may
   have filled with somebody else's key) - it must be the declared signer's own *)
Theorem ante_rejects_foreign_key s t ka : key_used s t = Some ka -> ka <> msg_signer (t_msg t) -> ante s t = None.
Proof.
  intros K N. destruct (ante s t) as [s'|] eqn:E; auto.
  destruct (ante_accept _ _ _ E) as (kb & Kb & Eq & _). rewrite K in Kb. injection Kb as <-. contradiction.
Qed.
Theorem ante_rejects_replay s t : t_in_index t = true -> ante s t = None.
Proof.
  intros H. destruct (ante s t) as [s'|] eqn:E; auto.
  destruct (ante_accept _ _ _ E) as (ka & _ & _ & _ & _ & R & _). congruence.
Qed.

(* C11: rejected transactions leave no trace *)
Theorem rejected_unchanged s t s' : deliver_tx s t = DRejected s' -> s' = s.
Proof.
  unfold deliver_tx. destruct (_ || _); [intros [= <-]; auto|].
  destruct (ante s t); [|intros [= <-]; auto]. destruct (handle _ _); discriminate.
Qed.
(* a handler that fails has written nothing: every handler validates before its first write *)
Theorem handler_err_unchanged s m s' : 0 <= p_min_stake (pp s) -> handle s m = HErr s' -> s' = s.
Proof.
  intros Hmin. destruct m as [pk a amt|a|a|f t amt|f key v raw wf|f t amt act|f h raw]; [|simpl| |simpl..].
  - destruct (stake_inv s pk a amt) as [->|(v0 & s1 & G & _ & _ & [Min Enough] & K)]; [intros [= <-]; auto|].
    (* the transfer into the pool cannot fail after the balance check *)
    destruct K as [[E _]|(s2 & _ & [[-> _]|[-> _]])]; [exfalso|discriminate..]. unfold bank_send in E.
    assert (B : bal s1 a = bal s a) by (destruct G as [[_ ->]|(_ & _ & ->)]; reflexivity).
    rewrite B in E. destruct (Z.ltb_spec amt 0); [lia|]. destruct (Z.ltb_spec (bal s a) amt); [lia|]. discriminate.
  - destruct (get_val s a) as [v|]; [|intros [= <-]; auto]. destruct (negb _); [intros [= <-]; auto|].
    destruct (_ <? _); [intros [= <-]; auto|discriminate].
  - destruct (unjail_inv s a) as [->|(v & si & _ & _ & _ & _ & _ & _ & _ & ->)]; [intros [= <-]; auto|discriminate].
  - destruct (bank_send s f t amt); [discriminate|intros [= <-]; auto].
  - destruct (negb _); [intros [= <-]; auto|]. destruct wf; discriminate.
  - destruct (negb _); [intros [= <-]; auto|]. destruct (act =? 1)%N.
    + destruct (bank_send _ _ _ _); [discriminate|intros [= <-]; auto].
    + destruct (act =? 2)%N; [|intros [= <-]; auto]. destruct (bank_burn _ _ _); [discriminate|intros [= <-]; auto].
  - destruct (negb _); [intros [= <-]; auto|discriminate].
Qed.
(* so a transaction whose handler fails has paid its fee and changed nothing else *)
Theorem handler_err_pays_fee_only s t s' : 0 <= p_min_stake (pp s) ->
  deliver_tx s t = DHandlerErr s' -> ante s t = Some s'.
Proof.
  intros Hm. unfold deliver_tx. destruct (_ || _); [discriminate|].
  destruct (ante s t) as [s1|] eqn:E; [|discriminate].
  destruct (handle s1 (t_msg t)) as [s2|s2] eqn:Eh; [discriminate|]. intros [= <-].
  f_equal. symmetry. eapply handler_err_unchanged; [|exact Eh].
  bank_only (bank_send_sets _ _ _ _ _ (ante_inv _ _ _ E)). exact Hm.
Qed.

Definition gov_view (s : state) := (pp s, ap s, acl s, dao_owner s, params_raw s).
(* C17: parameters change only through a change-param / upgrade message sent by the ACL owner of that key *)
Theorem params_change_needs_owner s m s' : handle s m = HOk s' -> gov_view s' <> gov_view s ->
  (exists f key v raw wf, m = MChangeParam f key v raw wf /\ beqb (owner_of (acl s) key) f = true) \/
  (exists f h raw, m = MUpgrade f h raw /\ beqb (owner_of (acl s) [103;111;118;47;117;112;103;114;97;100;101]%N) f = true).
Proof.
  intros E Hne.
  (* the other five handlers write no parameter *)
  assert (K : (forall f k v raw wf, m <> MChangeParam f k v raw wf) -> (forall f h raw, m <> MUpgrade f h raw) -> False).
  { intros N1 N2. apply Hne. change s' with (hres_state (HOk s')). rewrite <- E. apply (fr_handle _ gov_view); auto; intros; reflexivity. }
  destruct m as [pk a amt|a|a|f t amt|f key v raw wf|f t amt act|f h raw]; try (destruct K; discriminate); cbn [handle] in E.
  - left. destruct (beqb (owner_of (acl s) key) f) eqn:Eo; [eauto 10|discriminate].
  - right. destruct (beqb _ f) eqn:Eo; [eauto 10|discriminate].
Qed.
Theorem param_change_alters_one s f key v raw s' :
  handle s (MChangeParam f key v raw true) = HOk s' ->
  forall k, k <> key -> aget (params_raw s') k = aget (params_raw s) k.
Proof.
  simpl. destruct (negb _); [discriminate|]. intros [= <-] k Hk.
  assert (G : params_raw (apply_param s key v raw) = aset (params_raw s) key raw).
  { unfold apply_param. destruct v; try reflexivity; destruct (_ =? _)%N; reflexivity. }
  rewrite G, aget_aset. destruct (beqb key k) eqn:E; auto. apply beqb_eq in E. congruence.
Qed.
(* C17: DAO funds move only by a message from the DAO owner, by exactly the stated amount, within the balance *)
Theorem dao_needs_owner s f t amt act s' : handle s (MDao f t amt act) = HOk s' ->
  beqb (dao_owner s) f = true /\
  ((act = 1%N /\ bank_send s (m_dao (ma s)) t amt = Some s') \/ (act = 2%N /\ bank_burn s (m_dao (ma s)) amt = Some s')) /\
  0 <= amt <= bal s (m_dao (ma s)).
Proof.
  simpl. destruct (beqb (dao_owner s) f); simpl; [|discriminate]. intros E. split; [reflexivity|].
  destruct (N.eqb_spec act 1) as [->|].
  - destruct (bank_send s (m_dao (ma s)) t amt) as [s1|] eqn:Es; [|discriminate]. injection E as <-.
    split; [left; auto|].
    unfold bank_send in Es. destruct (Z.ltb_spec amt 0); [discriminate|]. destruct (Z.ltb_spec (bal s (m_dao (ma s))) amt); [discriminate|]. lia.
  - destruct (N.eqb_spec act 2) as [->|]; [|discriminate].
    destruct (bank_burn s (m_dao (ma s)) amt) as [s1|] eqn:Es; [|discriminate]. injection E as <-.
    split; [right; auto|].
    unfold bank_burn in Es. destruct (Z.ltb_spec amt 0); [discriminate|]. destruct (Z.ltb_spec (bal s (m_dao (ma s))) amt); [discriminate|]. lia.
Qed.

Lemma chop_round_mul_P x : chop_round (x * P) = x.
Proof.
  rewrite chop_round_eq. apply (round_half_even_unique (x * P) P); [apply P_pos|apply round_half_even_ok, P_pos|].
  unfold is_rhe. replace (P * x - x * P) with 0 by lia. simpl. pose proof P_pos. split; [lia|intros; lia].
Qed.
(* C07: amount.ToDec().Mul(factor).TruncateInt() = trunc(power * 10^6 * factor) exactly *)
Theorem slash_amount_exact power f amount d sa :
  tokens_from_power power = Some amount -> dec_mul (dec_from_int amount) f = Some d -> dec_truncate_int d = Some sa ->
  sa = Z.quot (power * 10 ^ 6 * f) P.
Proof.
  unfold tokens_from_power, int_mul, power_reduction, dec_mul, dec_from_int, dec_truncate_int, int_new_from_big, dec_chk, int_chk, chop_trunc.
  destruct (_ >? _); [discriminate|]. destruct (int_ok _); [|discriminate]. intros [= <-].
  change (Z.pow_pos 10 6) with (10 ^ 6).
  replace (power * 10 ^ 6 * P * f) with (power * 10 ^ 6 * f * P) by lia. rewrite chop_round_mul_P.
  destruct (dec_ok _); [|discriminate]. intros [= <-]. destruct (int_ok _); [|discriminate]. intros [= <-]. reflexivity.
Qed.

(* C10: minting the awards empties the queue; one award mints exactly its amount and passes it on to its address *)
Theorem awards_queue_emptied s : awards (mint_awards s) = [].
Proof. reflexivity. Qed.
Theorem one_award_mints_exactly s a amt s1 s2 : bank_ok s ->
  bank_mint s (m_pool (ma s)) amt = Some s1 -> bank_send s1 (m_pool (ma s1)) a amt = Some s2 ->
  mint_award s a amt = s2 /\ supply s2 = supply s + amt.
Proof.
  intros H E1 E2. unfold mint_award. rewrite E1, E2. split; auto.
  destruct (bank_mint_ok _ _ _ _ H E1) as (H1 & S1 & _). destruct (bank_send_ok _ _ _ _ _ H1 E2) as (_ & S2). congruence.
Qed.
