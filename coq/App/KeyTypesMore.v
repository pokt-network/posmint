(* More history-level results under the key-type restriction (App/KeyTypes.v). The invariants that ask something of
   every operation: the pool backs the recorded stake (C04), exactly (C04, no gifts), and the missed counter equals the
   stored misses (C08). Then the tombstone (C09) and the governance view (C17). *)
From Coq Require Import List ZArith NArith.
From PM Require Import Base.Bytes Store.KV App.Model App.Walk App.TxProofs App.PoolProofs App.PoolExact
  App.MissedProofs App.IndexProofs App.TombProofs App.GovProofs App.KeyTypes.
Import ListNotations.
Local Open Scope Z_scope.

Theorem run_cp_pool MA r ops s s' : pool_ok MA s -> Forall (op_ok MA) ops -> run_cp r ops s = Some s' -> pool_ok MA s'.
Proof. intros H F E. exact (closed_run_cp _ _ (pool_closed MA) r ops F s s' E H). Qed.
Theorem run_cp_px MA r ops s s' : px MA s -> Forall (op_nogift MA) ops -> run_cp r ops s = Some s' -> px MA s'.
Proof. intros H F E. exact (closed_run_cp _ _ (px_closed MA) r ops F s s' E H). Qed.
Theorem run_cp_mok L r ops s s' : missed_ok L s -> Forall (op_len_ok L) ops -> run_cp r ops s = Some s' -> missed_ok L s'.
Proof. intros H F E. exact (closed_run_cp _ _ (missed_closed L) r ops F s s' E H). Qed.

(* C09 under the restriction: a tombstone is never lifted, a tombstoned validator stays jailed and never regains an index entry *)
Theorem run_cp_tk r ops s s' : tomb_ok s -> run_cp r ops s = Some s' -> tk s s'.
Proof. intros H E. exact (closed_run_cp _ _ tomb_closed r ops (all_ops ops) s s' E H). Qed.
Theorem tombstoned_forever_cp r ops s s' a : tomb_ok s -> tombed (sinfo s) a -> run_cp r ops s = Some s' ->
  tombed (sinfo s') a /\ forall v, get_val s' a = Some v -> v_jailed v = true.
Proof. intros H T E. exact (tk_forever s s' a (run_cp_tk r ops s s' H E) T). Qed.
Theorem tombstoned_never_indexed_cp r ops s s' a : tomb_ok s -> idx_sound s -> tombed (sinfo s) a -> run_cp r ops s = Some s' ->
  forall k, aget (powidx s') k <> Some a.
Proof. intros H I T E. exact (tk_never_indexed s s' a (run_cp_tk r ops s s' H E) (run_cp_idx_sound r ops s s' I E) T). Qed.

(* C17 under the restriction: over the whole block cycle only a delivered change-parameter / upgrade transaction of the ACL
   owner changes a parameter, the ACL, the DAO owner or the upgrade plan (a refused stake ends in the ante handler's state,
   which changes none of them) *)
Theorem params_change_only_by_owner_tx_cp r s o s' : step_cp r s o = Some s' -> gov_view s' <> gov_view s ->
  exists t s1, o = OTx t /\ ante s t = Some s1 /\ acl s1 = acl s /\
    ((exists f key v raw wf, t_msg t = MChangeParam f key v raw wf /\ beqb (owner_of (acl s) key) f = true /\ msg_signer (t_msg t) = f) \/
     (exists f h raw, t_msg t = MUpgrade f h raw /\ beqb (owner_of (acl s) [103;111;118;47;117;112;103;114;97;100;101]%N) f = true)).
Proof.
  destruct o as [h tm p vs es|t|a amt|a sev| |]; try (exact (params_change_only_by_owner_tx s _ s')).
  simpl. intros [= <-] N. destruct (deliver_tx_cp_cases r s t) as [E|E].
  - rewrite E in N. apply (params_change_only_by_owner_tx s (OTx t) (dres_state (deliver_tx s t))); [reflexivity|exact N].
  - exfalso. apply N. exact (gv_ante s t _ E).
Qed.
