(* C07, the whole effect of one slash on a state that satisfies the pool invariant: exactly
   D = min(trunc(p * 10^6 * f), stake)  - or the whole stake when the remainder falls below the minimum (forced unstake) -
   leaves the validator's record, the staked pool and the total supply; nobody else's balance and no other validator's
   record changes. A slash that computes a non-positive amount changes no balance, no record and not the supply. *)
From Coq Require Import List ZArith NArith Lia.
From PM Require Import Base.Bytes Store.KV Store.KVProofs Num.IntModel Num.DecModel App.Model App.Walk App.BankProofs
  App.PoolProofs.
Import ListNotations.
Local Open Scope Z_scope.

Section S.
Variable MA : modaddrs.
Notation P := (m_pool MA).

(* what one removal of D tokens from validator a looks like from outside *)
Definition removed (s s' : state) (a : bytes) (D : Z) : Prop :=
  supply s' = supply s - D /\ bal s' P = bal s P - D /\ (forall x, x <> P -> bal s' x = bal s x) /\
  (exists v v', get_val s a = Some v /\ get_val s' a = Some v' /\ stk v' = stk v - D /\ v_pk v' = v_pk v /\ v_jailed v' = v_jailed v) /\
  (forall b, b <> a -> get_val s' b = get_val s b).

(* both halves of a slash are of this kind: a's record rewritten with D less stake, D gone from the pool and the supply *)
Lemma removed_intro s s' a v v1 D : get_val s a = Some v -> vals s' = aset (vals s) a v1 ->
  stk v1 = stk v - D -> v_pk v1 = v_pk v -> v_jailed v1 = v_jailed v ->
  supply s' = supply s - D -> (forall x, bal s' x = bal s x - (if beqb P x then D else 0)) -> removed s s' a D.
Proof.
  intros E EV K Pk Jl ES EB.
  assert (G : forall b, get_val s' b = if beqb a b then Some v1 else get_val s b) by (intros b; unfold get_val; rewrite EV; apply aget_aset).
  split; [exact ES|]. split; [rewrite EB, beqb_refl; reflexivity|].
  split; [intros x Nx; rewrite EB; destruct (beqb P x) eqn:Bq; [apply beqb_eq in Bq; congruence|lia]|].
  split.
  - exists v, v1. rewrite G, beqb_refl. auto.
  - intros b Nb. rewrite G. destruct (beqb a b) eqn:Bq; [apply beqb_eq in Bq; congruence|reflexivity].
Qed.
Lemma removed_trans s1 s2 s3 a D1 D2 : removed s1 s2 a D1 -> removed s2 s3 a D2 -> removed s1 s3 a (D1 + D2).
Proof.
  intros (S1 & P1 & O1 & (v & v' & E1 & E1' & K1 & Pk1 & J1) & R1) (S2 & P2 & O2 & (w & w' & E2 & E2' & K2 & Pk2 & J2) & R2).
  rewrite E1' in E2. injection E2 as <-.
  split; [lia|]. split; [lia|]. split; [intros x Nx; rewrite O2, O1 by auto; reflexivity|].
  split; [exists v, w'; repeat split; auto; try lia; congruence|]. intros b Nb. rewrite R2, R1 by auto. reflexivity.
Qed.

Lemma burn_staked_exact s D s' : burn_staked s D = Some s' -> bank_ok s -> ma s = MA ->
  supply s' = supply s - D /\ forall x, bal s' x = bal s x - (if beqb P x then D else 0).
Proof.
  unfold burn_staked. intros E B EM. rewrite EM in E. destruct (D <=? 0); [discriminate|].
  split; [apply (bank_burn_ok _ _ _ _ B E)|]. intros x. apply (bal_burn _ _ _ _ x E).
Qed.
(* the pool backs every record, so it affords to burn any part of one *)
Lemma burn_staked_some s a v s1 D : pool_ok MA s -> get_val s a = Some v -> ma s1 = MA -> accts s1 = accts s ->
  0 < D <= stk v -> exists s2, burn_staked s1 D = Some s2.
Proof.
  intros (_ & _ & V & _ & L) E EM EA HD. destruct (burn_staked s1 D) as [s2|] eqn:E2; [eauto|exfalso].
  pose proof (ssum_ge_stkz (vals s) a V) as G. unfold stkz in G. unfold get_val in E. rewrite E in G.
  destruct (burn_staked_none MA _ _ E2 EM) as [K|K]; [lia|]. unfold bal in *. rewrite EA in K. lia.
Qed.

(* ForceValidatorUnstake: the whole remaining stake goes *)
Lemma force_unstake_does s a v : pool_ok MA s -> get_val s a = Some v -> exists s', force_unstake s a v = Some s' /\
  removed s s' a (stk v) /\ exists v', get_val s' a = Some v' /\ v_status v' = 0%N /\ v_tokens v' = 0.
Proof.
  intros H E. pose proof H as (EM & B & _). destruct (val_facts MA s a v H E) as [Nv Zv].
  assert (Sv : stk v = v_tokens v) by (unfold stk; destruct (N.eqb_spec (v_status v) 0); [symmetry|]; auto).
  unfold force_unstake. set (v0 := with_status (with_tokens v 0) 0).
  (* before the burn, the index and the queue only *)
  rewrite unqueued_sets. set (s1 := set_unstq (del_staked s a v) _).
  assert (K : exists x, (if 0 <? v_tokens v then burn_staked s1 (v_tokens v) else Some s1) = Some x /\
            vals x = vals s /\ supply x = supply s - stk v /\ forall y, bal x y = bal s y - (if beqb P y then stk v else 0)).
  { rewrite Sv. destruct (0 <? v_tokens v) eqn:Pos.
    - apply Z.ltb_lt in Pos. destruct (burn_staked_some s a v s1 (v_tokens v) H E EM eq_refl ltac:(lia)) as (s2 & E2).
      exists s2. destruct (burn_staked_exact _ _ _ E2 B EM) as [ES EB]. bank_only (burn_staked_sets _ _ _ E2). auto.
    - apply Z.ltb_ge in Pos. eexists. split; [reflexivity|]. split; [reflexivity|]. split; [cbn; lia|]. intros y. unfold bal. cbn. destruct (beqb P y); lia. }
  destruct K as (x & -> & EV & ES & EB). eexists. split; [reflexivity|]. split; [|exists v0; split; [apply get_put_val|split; reflexivity]].
  apply (removed_intro s _ a v v0); auto; [cbn [vals put_val set_vals]; rewrite EV; reflexivity|unfold stk; cbn; lia].
Qed.
Lemma force_unstake_exact s a v s' : pool_ok MA s -> get_val s a = Some v -> force_unstake s a v = Some s' ->
  removed s s' a (stk v) /\ exists v', get_val s' a = Some v' /\ v_status v' = 0%N /\ v_tokens v' = 0.
Proof. intros H E F. destruct (force_unstake_does s a v H E) as (x & Ex & R). rewrite Ex in F. injection F as <-. exact R. Qed.

(* the cut: the record rewritten with [burn] tokens fewer and re-indexed, [burn] burnt from the pool *)
Lemma cut_exact s a v sa : pool_ok MA s -> get_val s a = Some v -> (v_status v =? 0)%N = false ->
  let burn := Z.max (Z.min sa (v_tokens v)) 0 in
  let v1 := with_tokens v (v_tokens v - burn) in
  0 < burn -> exists s3, burn_staked (reindexed s a v v1) burn = Some s3 /\
    pool_ok MA s3 /\ get_val s3 a = Some v1 /\ pp s3 = pp s /\ removed s s3 a burn.
Proof.
  intros H E St burn v1 Pos. pose proof (cut_tied MA s a v sa H E St) as C. cbv zeta in C. fold burn v1 in C.
  pose proof H as (EM & B & _). assert (Sv : stk v = v_tokens v) by (unfold stk; rewrite St; reflexivity).
  revert C. unfold reindexed. destruct (set_staked_sets (put_val (del_staked s a v) a v1) a v1) as (ix & ->). intros C.
  destruct (burn_staked_some s a v (set_powidx (put_val (del_staked s a v) a v1) ix) burn H E EM eq_refl ltac:(lia)) as (s3 & E3).
  rewrite E3 in *. exists s3. split; [reflexivity|]. split; [apply C|]. destruct (burn_staked_exact _ _ _ E3 B EM) as [ES EB].
  bank_only (burn_staked_sets _ _ _ E3). split; [apply get_put_val|]. split; [reflexivity|].
  apply (removed_intro s _ a v v1); auto. unfold stk, v1. cbn. rewrite St. lia.
Qed.

Theorem slash_exact s a h p f v amount d sa : pool_ok MA s -> get_val s a = Some v -> v_status v <> 0%N ->
  (f <? 0) = false -> (height s <? h) = false ->
  tokens_from_power p = Some amount -> dec_mul (dec_from_int amount) f = Some d -> dec_truncate_int d = Some sa ->
  let burn := Z.max (Z.min sa (v_tokens v)) 0 in
  (burn = 0 -> exists x, slash s a h p f = SErr x /\ accts x = accts s /\ supply x = supply s /\ forall b, get_val x b = get_val s b) /\
  (0 < burn -> exists s', slash s a h p f = SOk s' /\
     removed s s' a (if v_tokens v - burn <? p_min_stake (pp s) then v_tokens v else burn)).
Proof.
  intros H E St F0 H0 T1 T2 T3 burn. apply N.eqb_neq in St. unfold slash. rewrite F0, H0, E, St, T1, T2, T3.
  fold burn. set (v1 := with_tokens v (v_tokens v - burn)). fold (reindexed s a v v1). split.
  - intros Z0. unfold burn_staked. rewrite Z0. cbn [Z.leb Z.compare]. eexists. split; [reflexivity|].
    assert (Ev : v1 = v) by (unfold v1; rewrite Z0, Z.sub_0_r; destruct v; reflexivity).
    unfold reindexed. destruct (set_staked_sets (put_val (del_staked s a v) a v1) a v1) as (ix & ->).
    split; [reflexivity|]. split; [reflexivity|]. intros b. unfold get_val. cbn [vals set_powidx put_val set_vals del_staked].
    rewrite aget_aset. destruct (beqb a b) eqn:Bq; [|reflexivity]. apply beqb_eq in Bq. subst b. rewrite Ev. symmetry. exact E.
  - intros Pos. destruct (cut_exact s a v sa H E St Pos) as (s3 & E3 & H3 & G3 & PP3 & R3). fold burn v1 in E3, G3, R3.
    rewrite E3, PP3. change (v_tokens v1) with (v_tokens v - burn).
    destruct (v_tokens v - burn <? p_min_stake (pp s)); [|exists s3; split; [reflexivity|exact R3]].
    destruct (force_unstake_does s3 a v1 H3 G3) as (s4 & E4 & R4 & _). rewrite E4. exists s4. split; [reflexivity|].
    replace (v_tokens v) with (burn + stk v1) by (unfold stk, v1; cbn; rewrite St; lia). exact (removed_trans _ _ _ _ _ _ R3 R4).
Qed.
End S.
