(* C10, both halves. The award queue: at BeginBlock every address receives exactly the amount queued for
   it, newly minted (the supply grows by exactly the sum of the queue), nobody else's balance moves, and the queue is
   empty afterwards; awards queued for one address during a block add up. The fees: the WHOLE balance of the fee collector
   goes to the previous proposer (or stays in the pos module account when that address is not a validator), exactly once:
   afterwards the collector is empty. *)
From Coq Require Import List ZArith NArith Lia.
From PM Require Import Base.Bytes Store.KV Store.MergeProofs Store.KVProofs App.Model App.Walk App.BankProofs.
Import ListNotations.
Local Open Scope Z_scope.

Definition queued (l : list (bytes * Z)) (b : bytes) : Z :=
  fold_right (fun p acc => (if beqb (fst p) b then snd p else 0) + acc) 0 l.
Definition qtotal (l : list (bytes * Z)) : Z := fold_right (fun p acc => snd p + acc) 0 l.

(* one award of a non-negative amount always goes through: the pool has just been credited with it *)
Lemma mint_award_effect s a amt : bank_ok s -> 0 <= amt ->
  let s' := mint_award s a amt in
  bank_ok s' /\ ma s' = ma s /\ supply s' = supply s + amt /\
  forall b, bal s' b = bal s b + (if beqb a b then amt else 0).
Proof.
  intros B N. unfold mint_award. set (Po := m_pool (ma s)).
  destruct (bank_mint s Po amt) as [s1|] eqn:E1.
  2:{ exfalso. unfold bank_mint in E1. destruct (Z.ltb_spec amt 0); [lia|discriminate]. }
  destruct (bank_mint_ok _ _ _ _ B E1) as (B1 & S1 & _). pose proof (fun b => proj2 (bal_mint _ _ _ _ b E1)) as Eb1.
  bank_only (bank_mint_sets _ _ _ _ E1). change (ma (set_bank s ac su)) with (ma s). fold Po.
  destruct (bank_send _ Po a amt) as [s2|] eqn:E2.
  2:{ exfalso. unfold bank_send in E2. rewrite Eb1, beqb_refl in E2. pose proof (getz_nonneg (accts s) Po (proj2 (proj2 B))) as G.
      destruct (Z.ltb_spec amt 0); [lia|]. destruct (Z.ltb_spec (bal s Po + amt) amt); [unfold bal, getz in *; lia|discriminate]. }
  destruct (bank_send_ok _ _ _ _ _ B1 E2) as [B2 S2]. pose proof (fun b => proj2 (bal_send _ _ _ _ _ b E2)) as Eb2.
  bank_only (bank_send_sets _ _ _ _ _ E2). cbv zeta. split; [exact B2|]. split; [reflexivity|]. split; [rewrite S2; exact S1|].
  intros b. rewrite Eb2, Eb1. destruct (beqb Po b); destruct (beqb a b); lia.
Qed.

Lemma fold_awards_effect l : forall s, bank_ok s -> (forall a x, In (a, x) l -> 0 <= x) ->
  let s' := fold_left (fun st p => mint_award st (fst p) (snd p)) l s in
  bank_ok s' /\ ma s' = ma s /\ supply s' = supply s + qtotal l /\ forall b, bal s' b = bal s b + queued l b.
Proof.
  induction l as [|[a x] l IH]; intros s B NN; cbn [fold_left fst snd].
  - unfold qtotal, queued. cbn [fold_right]. split; [exact B|]. split; [reflexivity|]. split; [lia|]. intros b. lia.
  - destruct (mint_award_effect s a x B (NN a x (or_introl eq_refl))) as (B1 & M1 & S1 & E1).
    destruct (IH (mint_award s a x) B1 (fun b y I => NN b y (or_intror I))) as (B2 & M2 & S2 & E2).
    cbv zeta in *. split; [exact B2|]. split; [congruence|]. split.
    + rewrite S2, S1. unfold qtotal. cbn [fold_right snd]. lia.
    + intros b. rewrite E2, E1. unfold queued. cbn [fold_right fst snd]. lia.
Qed.

(* BeginBlock's mintValidatorAwards *)
Theorem mint_awards_exact s : bank_ok s -> (forall a x, In (a, x) (awards s) -> 0 <= x) ->
  let s' := mint_awards s in
  awards s' = [] /\ bank_ok s' /\ supply s' = supply s + qtotal (awards s) /\
  forall b, bal s' b = bal s b + queued (awards s) b.
Proof.
  intros B NN. unfold mint_awards. destruct (fold_awards_effect (awards s) s B NN) as (B1 & M1 & S1 & E1).
  cbv zeta in *. split; [reflexivity|]. split; [exact B1|]. split; [exact S1|exact E1].
Qed.
(* with one entry per address (the queue is a map) "queued" is simply the entry *)
Lemma queued_map (m : amap Z) b : asorted m -> queued m b = match aget m b with Some x => x | None => 0 end.
Proof.
  induction m as [|[k v] m IH]; intros S; [reflexivity|]. destruct S as [Hx S]. unfold queued. cbn [fold_right fst snd aget].
  fold (queued m b). rewrite (IH S). unfold beqb. rewrite (bcompare_antisym b k). destruct (bcompare b k) eqn:C; cbn [CompOpp].
  - apply bcompare_eq in C. subst k. rewrite (aget_below m b Hx). lia.
  - rewrite (aget_below m b (below_trans true b k m C Hx)). lia.
  - reflexivity.
Qed.
(* AwardCoinsTo: amounts queued for one address add up *)
Theorem k_award_accumulates s a x :
  forall b, getz (awards (k_award s a x)) b = getz (awards s) b + (if beqb a b then x else 0).
Proof.
  intros b. unfold k_award. cbn [awards set_queues]. unfold getz. rewrite aget_aset.
  destruct (beqb a b) eqn:Bq; [apply beqb_eq in Bq; subst b|]; destruct (aget (awards s) a); lia.
Qed.

Theorem reward_from_fees_exact s p s' : bank_ok s ->
  m_fee (ma s) <> m_pos (ma s) -> p <> m_fee (ma s) -> p <> m_pos (ma s) ->
  reward_from_fees s p = Some s' ->
  bal s' (m_fee (ma s)) = 0 /\ supply s' = supply s /\
  (forall x, x <> m_fee (ma s) -> x <> m_pos (ma s) -> x <> p -> bal s' x = bal s x) /\
  match get_val s p with
  | Some _ => bal s' p = bal s p + bal s (m_fee (ma s)) /\ bal s' (m_pos (ma s)) = bal s (m_pos (ma s))
  | None => bal s' p = bal s p /\ bal s' (m_pos (ma s)) = bal s (m_pos (ma s)) + bal s (m_fee (ma s))
  end.
Proof.
  unfold reward_from_fees. intros B D1 D2 D3.
  set (F := m_fee (ma s)) in *. set (Po := m_pos (ma s)) in *. set (fees := bal s F).
  destruct (bank_send s F Po fees) as [s1|] eqn:E1; [|discriminate].
  destruct (bank_send_ok _ _ _ _ _ B E1) as [B1 S1]. pose proof (fun x => proj2 (bal_send s F Po fees s1 x E1)) as Bal1.
  bank_only (bank_send_sets _ _ _ _ _ E1). change (get_val (set_bank s ac su) p) with (get_val s p).
  change (ma (set_bank s ac su)) with (ma s). fold Po. destruct (get_val s p) as [v|].
  - intros E2. destruct (bank_send_ok _ _ _ _ _ B1 E2) as [_ S2]. pose proof (fun x => proj2 (bal_send _ Po p fees s' x E2)) as Bal2.
    split; [rewrite Bal2, Bal1; rewrite !beqb_refl, (beqb_neq Po F), (beqb_neq p F) by auto; unfold fees; lia|].
    split; [congruence|].
    split; [intros x N1 N2 N3; rewrite Bal2, Bal1; rewrite (beqb_neq F x), (beqb_neq Po x), (beqb_neq p x) by auto; lia|].
    split; rewrite Bal2, Bal1.
    + rewrite beqb_refl, (beqb_neq F p), (beqb_neq Po p) by auto. lia.
    + rewrite !beqb_refl, (beqb_neq F Po), (beqb_neq p Po) by auto. lia.
  - intros [= <-].
    split; [rewrite Bal1; rewrite beqb_refl, (beqb_neq Po F) by auto; unfold fees; lia|].
    split; [exact S1|].
    split; [intros x N1 N2 N3; rewrite Bal1; rewrite (beqb_neq F x), (beqb_neq Po x) by auto; lia|].
    split; rewrite Bal1.
    + rewrite (beqb_neq F p), (beqb_neq Po p) by auto. lia.
    + rewrite beqb_refl, (beqb_neq F Po) by auto. lia.
Qed.
