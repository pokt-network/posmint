(* The consensus parameters given at InitChain may restrict the key types a validator may stake with
   (ConsensusParams.Validator.PubKeyTypes, x/pos/handler.go stakeNewValidator). The model knows key types by the length of the
   raw key: 32 bytes ed25519, anything else another type. With the restriction in force a first-time stake under a key of
   another type is refused by the handler BEFORE it validates or writes anything: the transaction has passed the ante
   handler, pays its fee, and leaves nothing else. Everything else is deliver_tx unchanged. *)
From Coq Require Import List ZArith NArith Bool.
From PM Require Import Base.Bytes App.Model App.Walk App.BankProofs App.TxProofs App.IndexProofs App.QueueProofs.
Import ListNotations.
Local Open Scope Z_scope.

Definition ed25519_key (pk : bytes) : bool := Nat.eqb (length pk) 32.
(* a stake message of an address that has no validator record yet, under a key the restriction does not admit *)
Definition refused_key (only_ed25519 : bool) (s : state) (m : msg) : bool :=
  match m with
  | MStake pk a _ => only_ed25519 && negb (ed25519_key pk) && (match get_val s a with Some _ => false | None => true end)
  | _ => false
  end.
Definition deliver_tx_cp (only_ed25519 : bool) (s : state) (t : tx) : dres :=
  if negb (msg_basic_ok (t_msg t)) || (t_fee t <? 0) || t_sig_empty t then DRejected s
  else match ante s t with
  | None => DRejected s
  | Some s1 => if refused_key only_ed25519 s1 (t_msg t) then DHandlerErr s1
               else match handle s1 (t_msg t) with HOk s2 => DOk s2 | HErr s2 => DHandlerErr s2 end
  end.

(* without the restriction, and for every message the restriction does not concern, this is deliver_tx *)
Theorem deliver_tx_cp_unrestricted s t : deliver_tx_cp false s t = deliver_tx s t.
Proof. unfold deliver_tx_cp, deliver_tx, refused_key. destruct (_ || _); [reflexivity|]. destruct (ante s t); [|reflexivity].
  destruct (t_msg t); reflexivity. Qed.
Theorem deliver_tx_cp_other_messages r s t : (forall pk a amt, t_msg t <> MStake pk a amt) -> deliver_tx_cp r s t = deliver_tx s t.
Proof. intros N. unfold deliver_tx_cp, deliver_tx, refused_key. destruct (_ || _); [reflexivity|]. destruct (ante s t); [|reflexivity].
  destruct (t_msg t) eqn:E; try reflexivity. exfalso. eapply N. reflexivity. Qed.

(* C11 with the restriction: a rejected transaction leaves the state as it was; one the handler refuses has paid its fee
   (it passed the ante handler) and changed nothing else *)
Theorem cp_rejected_unchanged r s t s' : deliver_tx_cp r s t = DRejected s' -> s' = s.
Proof. unfold deliver_tx_cp. destruct (_ || _); [intros [= <-]; reflexivity|]. destruct (ante s t) as [s1|]; [|intros [= <-]; reflexivity].
  destruct (refused_key r s1 (t_msg t)); [discriminate|]. destruct (handle s1 (t_msg t)); discriminate. Qed.
Theorem cp_handler_err_pays_fee_only r s t s' : 0 <= p_min_stake (pp s) ->
  deliver_tx_cp r s t = DHandlerErr s' -> ante s t = Some s'.
Proof.
  intros M. unfold deliver_tx_cp. destruct (_ || _) eqn:G; [discriminate|]. destruct (ante s t) as [s1|] eqn:A; [|discriminate].
  destruct (refused_key r s1 (t_msg t)) eqn:R; [intros [= <-]; reflexivity|].
  intros H. rewrite <- A. apply (handler_err_pays_fee_only s t s' M). unfold deliver_tx. rewrite G, A. exact H.
Qed.
(* the refusal itself: a first-time staker under a key of another type never gets a validator record, whatever it offers *)
Theorem cp_refuses_other_key_types s t pk a amt s1 : t_msg t = MStake pk a amt -> ed25519_key pk = false ->
  ante s t = Some s1 -> get_val s1 a = None ->
  negb (msg_basic_ok (t_msg t)) || (t_fee t <? 0) || t_sig_empty t = false ->
  deliver_tx_cp true s t = DHandlerErr s1.
Proof. intros E K A V G. unfold deliver_tx_cp. rewrite G, A, E. unfold refused_key. rewrite K, V. reflexivity. Qed.

(* Whole histories under the restriction: the block cycle with deliver_tx_cp in the place of deliver_tx. Every invariant that the ordinary step preserves and that
   the ante handler preserves (possibly asking something of every operation of the history, e.g. "no transaction is
   signed by the pool's own address") is preserved by every history under the restriction: a refused stake ends in
   exactly the ante handler's state, everything else is the ordinary step. *)
Definition step_cp (r : bool) (s : state) (o : op) : option state :=
  match o with
  | OTx t => Some (dres_state (deliver_tx_cp r s t))
  | _ => step s o
  end.
Definition run_cp (r : bool) (ops : list op) (s : state) : option state := fold_opt (step_cp r) ops s.

Lemma deliver_tx_cp_cases r s t :
  dres_state (deliver_tx_cp r s t) = dres_state (deliver_tx s t) \/ ante s t = Some (dres_state (deliver_tx_cp r s t)).
Proof.
  unfold deliver_tx_cp, deliver_tx. destruct (_ || _); [left; reflexivity|]. destruct (ante s t) as [s1|]; [|left; reflexivity].
  destruct (refused_key r s1 (t_msg t)); [right; reflexivity|left; reflexivity].
Qed.

Section LiftP.
  Variable I : state -> Prop.
  Variable P : op -> Prop.
  Hypothesis I_step : forall s o s', I s -> P o -> step s o = Some s' -> I s'.
  Hypothesis I_ante : forall s t s', I s -> P (OTx t) -> ante s t = Some s' -> I s'.
  Lemma step_cp_inv_P r s o s' : I s -> P o -> step_cp r s o = Some s' -> I s'.
  Proof.
    intros H K. destruct o as [h tm p vs es|t|a amt|a sev| |]; simpl.
    - apply (I_step s (OBegin h tm p vs es)); assumption.
    - intros [= <-]. destruct (deliver_tx_cp_cases r s t) as [E|E].
      + rewrite E. apply (I_step s (OTx t)); [exact H|exact K|reflexivity].
      + eapply I_ante; eauto.
    - apply (I_step s (OAward a amt)); assumption.
    - apply (I_step s (OBurn a sev)); assumption.
    - apply (I_step s OEnd); assumption.
    - apply (I_step s OCommit); assumption.
  Qed.
  Theorem run_cp_inv_P r ops : Forall P ops -> forall s s', I s -> run_cp r ops s = Some s' -> I s'.
  Proof.
    unfold run_cp. induction ops as [|o ops IH]; simpl; intros F s s' H; [intros [= <-]; exact H|].
    inversion F as [|? ? Fo Fr]; subst. destruct (step_cp r s o) as [s1|] eqn:E; [|discriminate]. apply (IH Fr s1 s'). eapply step_cp_inv_P; eauto.
  Qed.
End LiftP.

(* in particular every relation that contains the model's steps ([closed], App/Walk.v), read from a fixed starting state *)
Theorem closed_run_cp Q J : closed Q J -> forall r ops, Forall Q ops -> forall s s', run_cp r ops s = Some s' -> J s s'.
Proof.
  intros C r ops F s s'. apply (run_cp_inv_P (J s) Q) with (3 := F); [| |apply (c_refl Q J C)].
  - intros x o x' H K E. exact (c_trans Q J C _ _ _ H (closed_step Q J C x o x' K E)).
  - intros x t x' H K E. exact (c_trans Q J C _ _ _ H (c_ante Q J C t K x x' E)).
Qed.

(* C02 under the restriction: supply = sum of all balances in every reachable state of every history *)
Theorem run_cp_bank_ok r ops s s' : bank_ok s -> run_cp r ops s = Some s' -> bank_ok s'.
Proof. intros H E. exact (closed_run_cp _ _ bank_closed r ops (all_ops ops) s s' E H). Qed.
(* C05/C06 under the restriction: the power index stays sound, every unstaking validator stays queued and every queued
   address stays an unstaking validator, in every reachable state of every history *)
Theorem run_cp_idx_sound r ops s s' : idx_sound s -> run_cp r ops s = Some s' -> idx_sound s'.
Proof. intros H E. exact (closed_run_cp _ _ index_closed r ops (all_ops ops) s s' E H). Qed.
Theorem run_cp_queue_ok r ops s s' : queue_ok s -> run_cp r ops s = Some s' -> queue_ok s'.
Proof. intros H E. exact (closed_run_cp _ _ queue_ok_closed r ops (all_ops ops) s s' E H). Qed.
Theorem run_cp_queue_sound r ops s s' : queue_sound s -> run_cp r ops s = Some s' -> queue_sound s'.
Proof. intros H E. exact (closed_run_cp _ _ queue_sound_closed r ops (all_ops ops) s s' E H). Qed.
Theorem run_cp_unrestricted ops : forall s, run_cp false ops s = run ops s.
Proof.
  unfold run_cp, run. induction ops as [|o ops IH]; intros s; [reflexivity|]. simpl.
  assert (E : step_cp false s o = step s o) by (destruct o; simpl; try reflexivity; rewrite deliver_tx_cp_unrestricted; reflexivity).
  rewrite E. destruct (step s o); [apply IH|reflexivity].
Qed.
