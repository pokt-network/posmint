(* C02: total supply = sum of all balances, balances never negative, for every function of the
   application model. The bank component is touched only through bank_send / bank_mint /
   bank_burn; everything else is shown to preserve the invariant by composition. *)
From Coq Require Import List ZArith NArith Bool Lia.
From PM Require Import Base.Bytes Store.KV Store.KVProofs App.Model App.Walk.
Import ListNotations.
Local Open Scope Z_scope.

Fixpoint asum (m : amap Z) : Z := match m with [] => 0 | (_, v) :: r => v + asum r end.
Definition getz (m : amap Z) (k : bytes) : Z := match aget m k with Some b => b | None => 0 end.

Lemma asum_aset m k v : asum (aset m k v) = asum m - getz m k + v.
Proof.
  unfold getz. induction m as [|[k0 v0] r IH]; simpl; [lia|].
  destruct (bcompare k k0); simpl; lia.
Qed.

Definition nonneg (m : amap Z) : Prop := forall k b, aget m k = Some b -> 0 <= b.
Definition binv (a : amap Z) (sup : Z) : Prop := asorted a /\ asum a = sup /\ nonneg a.
Definition bank_ok (s : state) : Prop := binv (accts s) (supply s).

Lemma nonneg_aset m k v : nonneg m -> 0 <= v -> nonneg (aset m k v).
Proof.
  intros N Hv k' b. rewrite aget_aset. destruct (beqb k k'); [intros [= <-]; auto|apply N].
Qed.
Lemma getz_nonneg m k : nonneg m -> 0 <= getz m k.
Proof. unfold getz. intros N. destruct (aget m k) eqn:E; [apply (N k z E)|lia]. Qed.
Lemma getz_aset m k v k' : getz (aset m k v) k' = if beqb k k' then v else getz m k'.
Proof. unfold getz. rewrite aget_aset. destruct (beqb k k'); auto. Qed.

Lemma bal_getz s a : bal s a = getz (accts s) a. Proof. reflexivity. Qed.

Theorem bank_send_ok s from to amt s' : bank_ok s -> bank_send s from to amt = Some s' ->
  bank_ok s' /\ supply s' = supply s.
Proof.
  unfold bank_ok, bank_send. intros (S & E & N).
  destruct ((amt <? 0) || (bal s from <? amt)) eqn:G; [discriminate|].
  apply orb_false_iff in G. destruct G as [G1 G2]. apply Z.ltb_ge in G1, G2. rewrite bal_getz in *.
  intros [= <-]. cbn [accts supply set_bank].
  set (a1 := aset (accts s) from (getz (accts s) from - amt)).
  assert (S1 : asorted a1) by (apply aset_sorted; auto).
  assert (N1 : nonneg a1) by (apply nonneg_aset; auto; lia).
  change (match aget a1 to with Some b => b | None => 0 end) with (getz a1 to).
  split; [|reflexivity]. split; [apply aset_sorted; auto|]. split.
  - rewrite asum_aset. unfold a1 at 1. rewrite asum_aset. lia.
  - apply nonneg_aset; auto. pose proof (getz_nonneg a1 to N1). lia.
Qed.
Theorem bank_mint_ok s modl amt s' : bank_ok s -> bank_mint s modl amt = Some s' ->
  bank_ok s' /\ supply s' = supply s + amt /\ 0 <= amt.
Proof.
  unfold bank_ok, bank_mint. intros (S & E & N). destruct (Z.ltb_spec amt 0); [discriminate|].
  intros [= <-]. cbn [accts supply set_bank]. rewrite bal_getz.
  split; [|split; auto]. split; [apply aset_sorted; auto|]. split.
  - rewrite asum_aset. lia.
  - apply nonneg_aset; auto. pose proof (getz_nonneg (accts s) modl N). lia.
Qed.
Theorem bank_burn_ok s modl amt s' : bank_ok s -> bank_burn s modl amt = Some s' ->
  bank_ok s' /\ supply s' = supply s - amt /\ 0 <= amt.
Proof.
  unfold bank_ok, bank_burn. intros (S & E & N).
  destruct ((amt <? 0) || (bal s modl <? amt)) eqn:G; [discriminate|].
  apply orb_false_iff in G. destruct G as [G1 G2]. apply Z.ltb_ge in G1, G2. rewrite bal_getz in *.
  intros [= <-]. cbn [accts supply set_bank].
  split; [|split; auto]. split; [apply aset_sorted; auto|]. split.
  - rewrite asum_aset. lia.
  - apply nonneg_aset; auto. lia.
Qed.

(* what a bank move does to the balance of any address x *)
Lemma bal_send s f t amt s' x : bank_send s f t amt = Some s' ->
  0 <= amt /\ bal s' x = bal s x - (if beqb f x then amt else 0) + (if beqb t x then amt else 0).
Proof.
  unfold bank_send.
  destruct ((amt <? 0) || (bal s f <? amt)) eqn:G; [discriminate|].
  apply orb_false_iff in G. destruct G as [G1 G2]. apply Z.ltb_ge in G1, G2. intros [= <-]. split; auto.
  unfold bal. cbn [accts set_bank].
  repeat match goal with |- context[match aget ?m ?k with Some b => b | None => 0 end] =>
    change (match aget m k with Some b => b | None => 0 end) with (getz m k) end.
  rewrite !getz_aset.
  destruct (beqb t x) eqn:Bt; [apply beqb_eq in Bt; subst t|]; destruct (beqb f x) eqn:Bf; try (apply beqb_eq in Bf; subst f);
    rewrite ?beqb_refl, ?Bt, ?Bf; try lia.
Qed.
Lemma bal_mint s m amt s' x : bank_mint s m amt = Some s' ->
  0 <= amt /\ bal s' x = bal s x + (if beqb m x then amt else 0).
Proof.
  unfold bank_mint. destruct (Z.ltb_spec amt 0); [discriminate|]. intros [= <-]. split; auto.
  unfold bal. cbn [accts set_bank]. rewrite aget_aset. unfold bal.
  destruct (beqb m x) eqn:B; [apply beqb_eq in B; subst m|]; lia.
Qed.
Lemma bal_burn s m amt s' x : bank_burn s m amt = Some s' ->
  0 <= amt /\ bal s' x = bal s x - (if beqb m x then amt else 0).
Proof.
  unfold bank_burn.
  destruct ((amt <? 0) || (bal s m <? amt)) eqn:G; [discriminate|].
  apply orb_false_iff in G. destruct G as [G1 G2]. apply Z.ltb_ge in G1, G2. intros [= <-]. split; auto.
  unfold bal. cbn [accts set_bank]. rewrite aget_aset. unfold bal.
  destruct (beqb m x) eqn:B; [apply beqb_eq in B; subst m|]; lia.
Qed.
Lemma mint_ma s m a s' : bank_mint s m a = Some s' -> ma s' = ma s.
Proof. intros E. bank_only (bank_mint_sets _ _ _ _ E). reflexivity. Qed.
Lemma bal_put_val s a v x : bal (put_val s a v) x = bal s x. Proof. reflexivity. Qed.

Lemma send_pres s f t a s' : bank_ok s -> bank_send s f t a = Some s' -> bank_ok s'.
Proof. intros H E. apply (bank_send_ok s f t a s' H E). Qed.
Lemma mint_pres s m a s' : bank_ok s -> bank_mint s m a = Some s' -> bank_ok s'.
Proof. intros H E. apply (bank_mint_ok s m a s' H E). Qed.
Lemma burn_pres s m a s' : bank_ok s -> bank_burn s m a = Some s' -> bank_ok s'.
Proof. intros H E. apply (bank_burn_ok s m a s' H E). Qed.
Lemma set_staked_pres s a v : bank_ok s -> bank_ok (set_staked s a v).
Proof. unfold set_staked. destruct (_ || _); auto. Qed.
Lemma burn_staked_pres s amt s' : bank_ok s -> burn_staked s amt = Some s' -> bank_ok s'.
Proof. unfold burn_staked. destruct (amt <=? 0); [discriminate|]. apply burn_pres. Qed.

Lemma force_unstake_pres s a v s' : bank_ok s -> force_unstake s a v = Some s' -> bank_ok s'.
Proof.
  unfold force_unstake. set (s1 := if (v_status v =? 1)%N then _ else _). intros H E.
  assert (H1 : bank_ok s1) by (unfold s1; destruct (v_status v =? 1)%N; exact H).
  destruct (0 <? v_tokens v); [destruct (burn_staked s1 _) eqn:E1; [|discriminate]; apply (burn_staked_pres _ _ _ H1) in E1|];
    injection E as <-; assumption.
Qed.
Lemma finish_unstaking_pres s a v s' : bank_ok s -> finish_unstaking s a v = Some s' -> bank_ok s'.
Proof.
  intros H F. destruct (finish_unstaking_inv _ _ _ _ F) as (ac & su & E & ->).
  exact (send_pres (del_unstaking s a v) _ _ _ _ H E).
Qed.

Definition sres_ok (r : sres) : Prop :=
  match r with SOk s | SErr s => bank_ok s | SPanic => True end.

Theorem bank_leaves : leaves (fun s s' => bank_ok s -> bank_ok s').
Proof.
  constructor; try (intros; assumption); auto.
  - (* l_sign *) intros s si mi H. exact H.
  - (* l_params *) intros s k v raw H. unfold apply_param. destruct v; exact H.
  - (* l_send *) intros s f t amt s' E H. exact (send_pres _ _ _ _ _ H E).
  - (* l_mint *) intros s m amt s' E H. exact (mint_pres _ _ _ _ H E).
  - (* l_burn *) intros s m amt s' E H. exact (burn_pres _ _ _ _ H E).
  - (* l_cut *) intros s a v sa _ _ burn s2. assert (K : bank_ok s -> bank_ok s2) by (intros H; apply set_staked_pres; exact H).
    destruct (burn_staked s2 burn) eqn:E; [|exact K]. intros H. exact (burn_staked_pres _ _ _ (K H) E).
  - (* l_force *) intros s a v s' _ E H. exact (force_unstake_pres _ _ _ _ H E).
  - (* l_jail *) intros s a s' E H. destruct (jail_inv _ _ _ E) as (v & _ & _ & ->). exact H.
  - (* l_finish *) intros s a v s' _ _ E H. exact (finish_unstaking_pres _ _ _ _ H E).
  - (* l_stake *) intros s pk a amt H. destruct (stake_inv s pk a amt) as [->|(v0 & s1 & G & _ & _ & _ & K)]; [exact H|].
    assert (H1 : bank_ok s1) by (destruct G as [[_ ->]|(_ & _ & ->)]; exact H).
    destruct K as [[_ ->]|(s2 & E & K)]; [exact H1|]. pose proof (send_pres _ _ _ _ _ H1 E) as H2.
    destruct K as [[-> _]|[-> _]]; apply set_staked_pres, H2.
  - (* l_unstake *) intros s a. cbn [handle]. destruct (get_val s a) as [v|]; [|auto]. destruct (negb _); [auto|]. destruct (_ <? _); auto.
  - (* l_unjail *) intros s a H. destruct (unjail_inv s a) as [->|(v & si & _ & _ & _ & _ & _ & _ & _ & ->)]; [exact H|].
    apply set_staked_pres, H.
Qed.
Definition bank_closed := leaves_closed _ bank_leaves.

(* C02 for every history: the invariant holds in every reachable state *)
Theorem step_pres s o s' : bank_ok s -> step s o = Some s' -> bank_ok s'.
Proof. intros H E. exact (closed_step _ _ bank_closed s o s' I E H). Qed.
Theorem run_pres ops s s' : bank_ok s -> run ops s = Some s' -> bank_ok s'.
Proof. intros H E. exact (closed_run _ _ bank_closed ops (all_ops ops) s s' E H). Qed.

(* a consistent genesis stays consistent through InitChain *)
Theorem init_chain_pres s0 gv dao s ups : bank_ok s0 -> init_chain s0 gv dao = Some (s, ups) -> bank_ok s.
Proof.
  intros H E. revert H. apply (walk_init_chain _ (l_refl _ bank_leaves) (l_trans _ bank_leaves)) with (4 := E); try apply bank_leaves.
  intros x [[a pk] t] Hx. exact Hx.
Qed.
