(* C04 / C06 / C08 / C09: step lemmas of the staking module model. *)
From Coq Require Import List ZArith NArith Bool Lia.
From PM Require Import Base.Bytes Store.KV Store.KVProofs Num.DecModel Num.DecProofs App.Model App.Walk App.BankProofs
  App.KeyProofs.
Import ListNotations.
Local Open Scope Z_scope.

(* C09: unjail succeeds only under its preconditions *)
Theorem unjail_preconditions s a s' : handle s (MUnjail a) = HOk s' ->
  exists v si, get_val s a = Some v /\ v_jailed v = true /\ p_min_stake (pp s) <= v_tokens v /\
    aget (sinfo s) a = Some si /\ si_tomb si = false /\ si_jailed_until si <= btime s /\
    unjail s a = Some s'.
Proof.
  intros Eh. destruct (unjail_inv s a) as [K|(v & si & Ev & Ej & Min & Es & Et & Ti & Eu & K)]; [congruence|].
  rewrite K in Eh. injection Eh as <-. exists v, si. repeat split; auto.
Qed.
(* after a successful unjail the validator is unjailed and, if staked, indexed under its current stake *)
Theorem unjail_effect s a s' v : get_val s a = Some v -> unjail s a = Some s' ->
  exists v', get_val s' a = Some v' /\ v_jailed v' = false /\ v_tokens v' = v_tokens v /\ v_status v' = v_status v /\
    (v_status v = 2%N -> aget (powidx s') (rank_key (v_tokens v) a) = Some a).
Proof.
  intros Ev. unfold unjail. rewrite Ev. destruct (v_jailed v); [|discriminate]. intros [= <-].
  exists (with_jailed v false). split; [unfold get_val; rewrite set_staked_vals; apply get_put_val|]. do 3 (split; [reflexivity|]).
  intros E2. unfold set_staked. cbn [with_jailed v_jailed v_status v_tokens orb]. rewrite E2. apply aget_aset_same.
Qed.
Theorem jail_removes_from_index s a s' v : asorted (powidx s) -> get_val s a = Some v -> jail s a = Some s' ->
  aget (powidx s') (rank_key (v_tokens v) a) = None /\
  exists v', get_val s' a = Some v' /\ v_jailed v' = true.
Proof.
  intros Sp Ev. unfold jail. rewrite Ev. destruct (v_jailed v); [discriminate|]. intros [= <-]. split.
  - unfold del_staked. cbn [powidx set_powidx put_val set_vals with_jailed v_tokens]. rewrite aget_adel, beqb_refl by auto. reflexivity.
  - exists (with_jailed v true). split; [apply get_put_val|reflexivity].
Qed.
Theorem set_staked_skips_jailed s a v : v_jailed v = true \/ v_status v <> 2%N -> set_staked s a v = s.
Proof.
  unfold set_staked. intros [H|H]; [rewrite H; reflexivity|].
  destruct (N.eqb_spec (v_status v) 2); [contradiction|]. rewrite orb_true_r. reflexivity.
Qed.
(* confirmed double-sign evidence tombstones and jails for ever *)
Theorem double_sign_tombstones s a h t p s' : handle_double_sign s a h t p = Some s' ->
  exists si, aget (sinfo s') a = Some si /\ si_tomb si = true /\ si_jailed_until si = double_sign_jail_end.
Proof.
  intros E. destruct (handle_double_sign_inv _ _ _ _ _ _ E) as (v & si & x & s2 & v2 & s3 & _ & _ & _ & _ & _ & _ & _ & ->).
  eexists. split; [apply aget_aset_same|split; reflexivity].
Qed.
Theorem tombstoned_never_unjails s a si : aget (sinfo s) a = Some si -> si_tomb si = true ->
  forall s', handle s (MUnjail a) <> HOk s'.
Proof.
  intros Es Et s' E. destruct (unjail_preconditions _ _ _ E) as (v & si' & _ & _ & _ & Es' & Et' & _). congruence.
Qed.

(* C04: staking moves exactly the staked amount *)
Theorem stake_exact s pk a amt s' : bank_ok s -> a <> m_pool (ma s) ->
  handle s (MStake pk a amt) = HOk s' ->
  p_min_stake (pp s) <= amt /\
  bal s' a = bal s a - amt /\ bal s' (m_pool (ma s)) = bal s (m_pool (ma s)) + amt /\ supply s' = supply s /\
  exists v', get_val s' a = Some v' /\ v_status v' = 2%N /\
    v_tokens v' = match get_val s a with Some v => v_tokens v | None => 0 end + amt.
Proof.
  intros Hb Hne Eh. destruct (stake_inv s pk a amt) as [K|(v0 & s1 & G & _ & _ & [Min _] & K)]; [congruence|].
  (* registering a new validator writes no account *)
  assert (A1 : bank_ok s1 /\ ma s1 = ma s /\ supply s1 = supply s /\ forall x, bal s1 x = bal s x)
    by (destruct G as [[_ ->]|(_ & _ & ->)]; auto).
  destruct A1 as (B1 & M1 & S1 & Bal1). destruct K as [[_ K]|(s2 & Es & K)]; [congruence|]. rewrite M1 in Es.
  destruct (bank_send_ok _ _ _ _ _ B1 Es) as [_ S2]. pose proof (fun x => proj2 (bal_send _ _ _ _ _ x Es)) as B2.
  bank_only (bank_send_sets _ _ _ _ _ Es). cbv zeta in K.
  set (v1 := with_status (with_tokens v0 (v_tokens v0 + amt)) 2) in K.
  destruct (set_staked_sets (put_val (set_bank s1 ac su) a v1) a v1) as (ix & Ex). rewrite Ex in K.
  (* what is left writes the index and the signing info *)
  assert (R : p_min_stake (pp s) <= amt /\ bal (set_bank s1 ac su) a = bal s a - amt /\
    bal (set_bank s1 ac su) (m_pool (ma s)) = bal s (m_pool (ma s)) + amt /\ supply (set_bank s1 ac su) = supply s /\
    exists v', get_val (put_val (set_bank s1 ac su) a v1) a = Some v' /\ v_status v' = 2%N /\
      v_tokens v' = match get_val s a with Some v => v_tokens v | None => 0 end + amt).
  { split; [lia|]. rewrite !B2, !Bal1, !beqb_refl, (beqb_neq _ _ Hne), (beqb_neq _ _ (not_eq_sym Hne)), S2, S1.
    do 3 (split; [lia|]).
    exists v1. split; [apply get_put_val|]. split; [reflexivity|]. destruct G as [[-> _]|(-> & -> & _)]; reflexivity. }
  destruct K as [[K _]|[K _]]; rewrite K in Eh; injection Eh as <-; exact R.
Qed.

(* C08: the downtime threshold MinSignedPerWindow is rounded half to even *)
Theorem min_signed_is_half_even p : min_signed_per_window p = round_half_even (p_min_signed p * p_window p) P.
Proof. unfold min_signed_per_window. apply chop_round_eq. Qed.

(* C06: only queue slots whose completion time is at or before the block time are processed *)
Theorem mature_slots_are_due s k l : 0 <= btime s < 256 ^ 8 ->
  In (k, l) (filter (fun p => bleb (fst p) (time_key (btime s))) (unstq s)) ->
  forall t, 0 <= t < 256 ^ 8 -> k = time_key t -> t <= btime s.
Proof.
  intros Hb Hin t Ht ->. apply filter_In in Hin. destruct Hin as [_ Hle]. simpl in Hle.
  unfold bleb, time_key in Hle. rewrite be_bytes_compare in Hle by (simpl; lia).
  destruct (Z.compare_spec t (btime s)); try lia; discriminate.
Qed.
