(* C08 over whole histories: in every reachable state the missed-blocks counter of every validator equals the number
   of "missed" entries stored in its bit array (x/pos signing info vs prefix 0x12). Together with RingTie (one vote =
   one ring step on exactly those bits) and RingProofs (the ring is the sliding window) this is C08's claim that the
   stored counter is the number of blocks missed within the signing window, for every history of the model: votes, downtime jailing (which clears the array and the counter
   together), double signs, (re-)staking, every other transaction, rewards, burns, EndBlock.
   Premise: staking addresses have one fixed length L (20 in the implementation), so that the per-address key
   prefixes of the bit array cannot overlap. *)
From Coq Require Import List ZArith NArith Bool Lia.
From PM Require Import Base.Bytes Store.KV Store.KVProofs App.Model App.Walk App.Frames App.RingProofs App.RingTie.
Import ListNotations.
Local Open Scope Z_scope.

(* the keys of validator a's bit array, as clearMissedArray selects them *)
Definition key_of (a k : bytes) : bool := has_prefix a k && Nat.eqb (length k) (length a + 8).
Definition mcnt (M : amap bool) (a : bytes) : nat := length (filter (fun p => snd p && key_of a (fst p)) M).

Definition mok (L : nat) (S : amap signinfo) (M : amap bool) : Prop :=
  asorted S /\ asorted M /\
  (forall a si, aget S a = Some si -> length a = L /\ si_missed si = Z.of_nat (mcnt M a)) /\
  (forall a, length a = L -> aget S a = None -> mcnt M a = 0%nat).
Definition missed_ok (L : nat) (s : state) : Prop := mok L (sinfo s) (missed s).

Lemma has_prefix_refl_app a x : has_prefix a (a ++ x) = true.
Proof. apply has_prefix_app. exists x. reflexivity. Qed.
Lemma has_prefix_same_length : forall a b x, length a = length b -> has_prefix a (b ++ x) = true -> a = b.
Proof.
  induction a as [|p a IH]; intros [|q b] x Hl H; try discriminate; auto.
  cbn [has_prefix app] in H. apply andb_true_iff in H. destruct H as [E H]. apply N.eqb_eq in E. subst q.
  f_equal. apply (IH b x); auto.
Qed.
Lemma key_of_missed_key a b i : length a = length b -> key_of a (missed_key b i) = beqb a b.
Proof.
  intros Hl. unfold key_of, missed_key. rewrite app_length, le_bytes_length, Hl, Nat.eqb_refl, andb_true_r.
  destruct (beqb a b) eqn:B.
  - apply beqb_eq in B; subst. apply has_prefix_refl_app.
  - destruct (has_prefix a (b ++ le_bytes 8 i)) eqn:P; auto.
    apply has_prefix_same_length in P; auto. subst. rewrite beqb_refl in B. discriminate.
Qed.
Lemma key_of_both a b k : length a = length b -> key_of a k = true -> key_of b k = true -> a = b.
Proof.
  unfold key_of. intros Hl Ha Hb. apply andb_true_iff in Ha, Hb. destruct Ha as [Pa _], Hb as [Pb _].
  apply has_prefix_app in Pb. destruct Pb as [x ->]. eapply has_prefix_same_length; eauto.
Qed.

Definition stored (M : amap bool) (k : bytes) : bool := match aget M k with Some b => b | None => false end.
Lemma cnt_cons k b M a : Z.of_nat (mcnt ((k, b) :: M) a) = b2z (b && key_of a k) + Z.of_nat (mcnt M a).
Proof. unfold mcnt. cbn [filter fst snd]. destruct (b && key_of a k); cbn [length b2z]; lia. Qed.
Lemma cnt_aset M k v a : Z.of_nat (mcnt (aset M k v) a) = Z.of_nat (mcnt M a) + (if key_of a k then b2z v - b2z (stored M k) else 0).
Proof.
  induction M as [|[k0 b0] M IH].
  - cbn [aset]. rewrite cnt_cons. unfold stored. cbn [aget]. unfold mcnt. cbn [filter length].
    destruct (key_of a k); destruct v; cbn [andb b2z]; lia.
  - cbn [aset]. unfold stored. cbn [aget]. destruct (bcompare k k0) eqn:C.
    + apply bcompare_eq in C; subst k0. rewrite !cnt_cons. destruct (key_of a k); destruct v, b0; cbn [andb b2z]; lia.
    + rewrite cnt_cons. rewrite (cnt_cons k0 b0 M a). destruct (key_of a k); destruct v; cbn [andb b2z]; lia.
    + rewrite !cnt_cons. fold (stored M k). rewrite IH. lia.
Qed.
Lemma cnt_clear_self M a : mcnt (filter (fun p => negb (key_of a (fst p))) M) a = 0%nat.
Proof.
  unfold mcnt. induction M as [|[k b] M IH]; [reflexivity|]. cbn [filter fst].
  destruct (key_of a k) eqn:K; cbn [negb]; [exact IH|]. cbn [filter fst snd]. rewrite K, andb_false_r. exact IH.
Qed.
Lemma cnt_clear_other M a b : length a = length b -> a <> b -> mcnt (filter (fun p => negb (key_of a (fst p))) M) b = mcnt M b.
Proof.
  intros Hl N. unfold mcnt. induction M as [|[k x] M IH]; [reflexivity|]. cbn [filter fst snd].
  destruct (key_of a k) eqn:K; cbn [negb].
  - assert (Kb : key_of b k = false).
    { destruct (key_of b k) eqn:Kb; auto. exfalso. apply N. eapply key_of_both; eauto. }
    rewrite Kb, andb_false_r. exact IH.
  - cbn [filter fst snd]. destruct (x && key_of b k); cbn [length]; rewrite IH; reflexivity.
Qed.

Lemma mok_same_counter L S M a si si' : mok L S M -> aget S a = Some si -> si_missed si' = si_missed si -> mok L (aset S a si') M.
Proof.
  intros (SS & SM & H1 & H2) E Ec. split; [apply aset_sorted; auto|]. split; auto. split.
  - intros b sb. rewrite aget_aset. destruct (beqb a b) eqn:B.
    + apply beqb_eq in B; subst b. intros [= <-]. destruct (H1 a si E) as [Hl Hc]. split; auto. congruence.
    + apply H1.
  - intros b Hl. rewrite aget_aset. destruct (beqb a b); [discriminate|]. apply H2; auto.
Qed.
Lemma mok_new L S M a si' : mok L S M -> aget S a = None -> length a = L -> si_missed si' = 0 -> mok L (aset S a si') M.
Proof.
  intros (SS & SM & H1 & H2) E Hl Ec. split; [apply aset_sorted; auto|]. split; auto. split.
  - intros b sb. rewrite aget_aset. destruct (beqb a b) eqn:B.
    + apply beqb_eq in B; subst b. intros [= <-]. split; auto. rewrite Ec, (H2 a Hl E). reflexivity.
    + apply H1.
  - intros b Hb. rewrite aget_aset. destruct (beqb a b); [discriminate|]. apply H2; auto.
Qed.
(* one vote: the bit at the ring position and the counter move together *)
Lemma mok_ring_update L S M a si w sg si' : mok L S M -> aget S a = Some si ->
  si_missed si' = snd (ring_update M a si w sg) -> mok L (aset S a si') (fst (ring_update M a si w sg)).
Proof.
  intros (SS & SM & H1 & H2) E Ec. destruct (H1 a si E) as [Hl Hc].
  set (k := missed_key a (Z.rem (si_offset si) w)).
  assert (Ka : key_of a k = true) by (unfold k; rewrite key_of_missed_key by reflexivity; apply beqb_refl).
  assert (Kb : forall b, length b = L -> b <> a -> key_of b k = false).
  { intros b Hb N. unfold k. rewrite key_of_missed_key by congruence. destruct (beqb b a) eqn:B; auto. apply beqb_eq in B. contradiction. }
  unfold ring_update in *. cbv zeta in *. fold k in Ec |- *. fold (stored M k) in Ec |- *.
  assert (Upd : forall v c, si_missed si' = c -> c = si_missed si + (b2z v - b2z (stored M k)) -> mok L (aset S a si') (aset M k v)).
  { intros v c E1 E2. split; [apply aset_sorted; auto|]. split; [apply aset_sorted; auto|]. split.
    - intros b sb. rewrite aget_aset. destruct (beqb a b) eqn:B.
      + apply beqb_eq in B; subst b. intros [= <-]. split; auto. rewrite cnt_aset, Ka. lia.
      + intros Eb. destruct (H1 b sb Eb) as [Hb Hcb]. split; auto. rewrite cnt_aset, (Kb b Hb); [lia|].
        intros ->. rewrite beqb_refl in B. discriminate.
    - intros b Hb. rewrite aget_aset. destruct (beqb a b) eqn:B; [discriminate|]. intros Eb.
      apply Nat2Z.inj. rewrite cnt_aset, (Kb b Hb); [rewrite (H2 b Hb Eb); reflexivity|].
      intros ->. rewrite beqb_refl in B. discriminate. }
  destruct (stored M k) eqn:St; destruct sg; cbn [negb andb fst snd] in Ec |- *.
  - apply (Upd false _ Ec). cbn [b2z]. lia.
  - eapply mok_same_counter; [exact (conj SS (conj SM (conj H1 H2)))|exact E|exact Ec].
  - eapply mok_same_counter; [exact (conj SS (conj SM (conj H1 H2)))|exact E|exact Ec].
  - apply (Upd true _ Ec). cbn [b2z]. lia.
Qed.
(* downtime jailing: the array is cleared and the counter reset together *)
Lemma mok_clear L S M a si si' : mok L S M -> aget S a = Some si -> si_missed si' = 0 ->
  mok L (aset S a si') (filter (fun p => negb (key_of a (fst p))) M).
Proof.
  intros (SS & SM & H1 & H2) E Ec. destruct (H1 a si E) as [Hl _].
  split; [apply aset_sorted; auto|]. split; [apply filter_sorted; auto|]. split.
  - intros b sb. rewrite aget_aset. destruct (beqb a b) eqn:B.
    + apply beqb_eq in B; subst b. intros [= <-]. split; auto. rewrite cnt_clear_self, Ec. reflexivity.
    + intros Eb. destruct (H1 b sb Eb) as [Hb Hcb]. split; auto. rewrite cnt_clear_other; auto; [congruence|].
      intros ->. rewrite beqb_refl in B. discriminate.
  - intros b Hb. rewrite aget_aset. destruct (beqb a b) eqn:B; [discriminate|]. intros Eb.
    rewrite cnt_clear_other; auto; [congruence|]. intros ->. rewrite beqb_refl in B. discriminate.
Qed.
(* what S itself holds for a does not matter, if the bits agree with S once a's info is si1 *)
Lemma mok_reset L S M a si1 si2 : mok L (aset S a si1) M -> si_missed si2 = 0 ->
  mok L (aset S a si2) (filter (fun p => negb (key_of a (fst p))) M).
Proof.
  intros K E0. rewrite <- (aset_aset_same S a si1 si2). apply (mok_clear L _ _ a si1); [exact K| |exact E0].
  rewrite aget_aset. rewrite beqb_refl. reflexivity.
Qed.

(* everything else leaves signing infos and bit arrays alone *)
Definition sm (s s' : state) : Prop := sinfo s' = sinfo s /\ missed s' = missed s.
Lemma sm_refl s : sm s s. Proof. split; reflexivity. Qed.
Lemma sm_trans s1 s2 s3 : sm s1 s2 -> sm s2 s3 -> sm s1 s3.
Proof. intros [A B] [C D]. split; congruence. Qed.
Lemma sm_ok L s s' : sm s s' -> missed_ok L s -> missed_ok L s'.
Proof. intros [A B] H. unfold missed_ok. rewrite A, B. exact H. Qed.
Lemma sm_bank_send s f t a s' : bank_send s f t a = Some s' -> sm s s'.
Proof. intros E. bank_only (bank_send_sets _ _ _ _ _ E). split; reflexivity. Qed.
Lemma sm_bank_mint s m a s' : bank_mint s m a = Some s' -> sm s s'.
Proof. intros E. bank_only (bank_mint_sets _ _ _ _ E). split; reflexivity. Qed.
Lemma sm_bank_burn s m a s' : bank_burn s m a = Some s' -> sm s s'.
Proof. intros E. bank_only (bank_burn_sets _ _ _ _ E). split; reflexivity. Qed.
Lemma sm_set_staked s a v : sm s (set_staked s a v).
Proof. unfold set_staked. destruct (_ || _); (split; reflexivity). Qed.
Lemma sm_apply_param s k v raw : sm s (apply_param s k v raw).
Proof. unfold apply_param. destruct v; split; reflexivity. Qed.
(* slash, jail and the forced unstake: the frame library at the projection (sinfo, missed) *)
Lemma sm_same s s' : same _ (fun t => (sinfo t, missed t)) s s' -> sm s s'.
Proof. intros [= A B]. split; assumption. Qed.
Lemma sm_sres : slash_in sm.
Proof. intros s a h p f x E. apply sm_same. revert E. apply fr_slash; reflexivity. Qed.
Lemma sm_jail : jail_in sm.
Proof. intros s a s' E. apply sm_same. revert E. apply fr_jail; reflexivity. Qed.
Lemma sm_force_unstake : force_in sm.
Proof. intros s a v s' G E. apply sm_same. revert G E. apply fr_force_unstake; reflexivity. Qed.
Lemma sm_finish_unstaking s a v s' : finish_unstaking s a v = Some s' -> sm s s'.
Proof.
  intros F. destruct (finish_unstaking_inv _ _ _ _ F) as (ac & su & _ & ->). split; reflexivity.
Qed.
Lemma sm_ante s t s' : ante s t = Some s' -> sm s s'.
Proof. apply (walk_ante sm sm_refl sm_trans sm_bank_send). Qed.

(* the three places that write signing infos: a vote, a double sign, a first stake *)
Lemma handle_signature_mok L s a p sg s' : missed_ok L s -> handle_signature s a p sg = Some s' -> missed_ok L s'.
Proof.
  intros H E. destruct (handle_signature_inv _ _ _ _ _ E) as (si & Esi & _ & K). cbv zeta in K.
  pose proof (fun si1 => mok_ring_update L _ _ a si (p_window (pp s)) sg si1 H Esi) as K1.
  destruct (ring_update (missed s) a si (p_window (pp s)) sg) as [mi ctr]. cbn [fst snd] in K1, K.
  destruct K as [->|(y & x & Ey & Ej & ->)]; [apply K1; reflexivity|].
  (* downtime: slash and jail write neither signing infos nor bits, so the reset meets the updated bits mi and the
     infos of s; the moved-on info of the other branch is never written, so any info with the new counter witnesses
     that mi agrees with it *)
  destruct (sm_trans _ _ _ (sm_sres _ _ _ _ _ _ Ey) (sm_jail _ _ _ Ej)) as [A B].
  unfold missed_ok. cbn [sinfo missed set_sign] in A, B |- *. rewrite A, B.
  apply (mok_reset L _ _ a {| si_start := 0; si_offset := 0; si_jailed_until := 0; si_tomb := false; si_missed := ctr |});
    [apply K1; reflexivity|reflexivity].
Qed.

Lemma handle_double_sign_mok L s a h t p s' : missed_ok L s -> handle_double_sign s a h t p = Some s' -> missed_ok L s'.
Proof.
  intros H E.
  destruct (handle_double_sign_inv _ _ _ _ _ _ E) as (v & si & x & s2 & v2 & s3 & _ & Esi & _ & Ex & E2 & G2 & F3 & ->).
  assert (F : sm s s3).
  { apply (sm_trans _ x); [exact (sm_sres _ _ _ _ _ _ Ex)|]. apply (sm_trans _ s2); [|exact (sm_force_unstake _ _ _ _ G2 F3)].
    destruct (v_jailed v); [subst s2; apply sm_refl|exact (sm_jail _ _ _ E2)]. }
  destruct F as [A B]. unfold missed_ok. cbn [sinfo missed set_sign]. rewrite A, B.
  eapply mok_same_counter; [exact H|exact Esi|reflexivity].
Qed.

Definition msg_len_ok (L : nat) (m : msg) : Prop := match m with MStake _ a _ => length a = L | _ => True end.
Lemma handle_mok L s m : msg_len_ok L m -> missed_ok L s -> missed_ok L (hres_state (handle s m)).
Proof.
  intros W H. destruct m as [pk a amt|a|a|f t amt|f key v raw wf|f t amt act|f h raw].
  4-7: revert H; apply sm_ok, (walk_handle sm sm_refl sm_trans sm_bank_send sm_bank_burn sm_apply_param); congruence.
  - destruct (stake_inv s pk a amt) as [->|(v0 & s1 & G & _ & _ & _ & K)]; [exact H|].
    assert (H1 : missed_ok L s1) by (destruct G as [[_ ->]|(_ & _ & ->)]; exact H).
    destruct K as [[_ ->]|(s2 & E2 & K)]; [exact H1|]. bank_only (bank_send_sets _ _ _ _ _ E2). cbv zeta in K.
    set (v1 := with_status (with_tokens v0 (v_tokens v0 + amt)) 2) in K.
    set (s3 := set_staked (put_val (set_bank s1 ac su) a v1) a v1) in K.
    assert (H3 : missed_ok L s3) by (apply (sm_ok L _ _ (sm_set_staked _ a v1)); exact H1).
    destruct K as [[-> _]|[-> E3]]; [exact H3|].
    (* a first stake: the fresh signing info counts 0, and no bit is stored under an address without one *)
    apply mok_new; [exact H3|exact E3|exact W|reflexivity].
  - cbn [handle]. destruct (get_val s a) as [v|]; [|exact H]. destruct (negb _); [exact H|]. destruct (_ <? _); exact H.
  - destruct (unjail_inv s a) as [->|(v & si & _ & _ & _ & _ & _ & _ & _ & ->)]; [exact H|].
    apply (sm_ok L _ _ (sm_set_staked _ a _)). exact H.
Qed.

Definition op_len_ok (L : nat) (o : op) : Prop := match o with OTx t => msg_len_ok L (t_msg t) | _ => True end.
Theorem missed_closed L : closed (op_len_ok L) (fun s s' => missed_ok L s -> missed_ok L s').
Proof.
  (* first the writes through a setter other than set_sign *)
  constructor; try (intros; eapply sm_ok; [split; reflexivity|assumption]).
  - (* c_trans *) auto.
  - (* c_reward *) intros s p s' E. apply sm_ok. exact (walk_reward sm sm_refl sm_trans sm_bank_send _ _ _ E).
  - (* c_award *) intros s a amt _. apply sm_ok, (walk_mint_award sm sm_refl sm_trans sm_bank_send sm_bank_mint).
  - (* c_slash *) intros s a h p f x E. apply sm_ok. exact (sm_sres _ _ _ _ _ _ E).
  - (* c_vote *) intros s a p sg s' E H. exact (handle_signature_mok L s a p sg s' H E).
  - (* c_evidence *) intros s a h t p s' E H. exact (handle_double_sign_mok L s a h t p s' H E).
  - (* c_update *) intros s s' ups E. apply sm_ok. revert E. apply (walk_update sm sm_refl sm_trans). intros st p t. split; reflexivity.
  - (* c_mature *) intros s s' E. apply sm_ok. revert E. apply (walk_mature sm sm_refl sm_trans); [|intros st k; split; reflexivity].
    intros st a v st' _ _. apply sm_finish_unstaking.
  - (* c_ante *) intros t _ s s' E. apply sm_ok. exact (sm_ante _ _ _ E).
  - (* c_handle *) intros t W s. apply handle_mok. exact W.
Qed.

Theorem run_mok L ops : forall s s', missed_ok L s -> Forall (op_len_ok L) ops -> run ops s = Some s' -> missed_ok L s'.
Proof. intros s s' H W E. exact (closed_run _ _ (missed_closed L) ops W s s' E H). Qed.

(* genesis: fresh signing infos, no bits *)
Lemma genesis_validator_mok L s g : missed_ok L s -> length (fst (fst g)) = L -> aget (sinfo s) (fst (fst g)) = None ->
  missed_ok L (genesis_validator s g).
Proof.
  destruct g as [[a pk] tokens]. cbn [fst]. intros H Hl Hn. unfold genesis_validator.
  set (v := {| v_pk := pk; v_jailed := false; v_status := 2; v_tokens := tokens; v_unstime := 0 |}).
  pose proof (sm_set_staked (put_val s a v) a v) as F1. set (s1 := set_staked (put_val s a v) a v) in *.
  pose proof (sm_ok L _ _ F1 H) as H1. destruct F1 as [A B].
  unfold missed_ok. cbn [sinfo missed set_sign set_misc]. apply mok_new; [exact H1|rewrite A; exact Hn|exact Hl|reflexivity].
Qed.
Lemma genesis_validator_sinfo s g b : fst (fst g) <> b ->
  aget (sinfo (genesis_validator s g)) b = aget (sinfo s) b.
Proof.
  destruct g as [[a pk] tokens]. cbn [fst]. intros N. unfold genesis_validator.
  cbn [sinfo set_sign set_misc]. rewrite (proj1 (sm_set_staked _ a _)). cbn [sinfo put_val set_vals].
  rewrite aget_aset. destruct (beqb a b) eqn:B; [apply beqb_eq in B; contradiction|reflexivity].
Qed.
Theorem init_chain_mok L s0 gvals dao s ups : missed_ok L s0 -> NoDup (map (fun g => fst (fst g)) gvals) ->
  (forall g, In g gvals -> length (fst (fst g)) = L /\ aget (sinfo s0) (fst (fst g)) = None) ->
  init_chain s0 gvals dao = Some (s, ups) -> missed_ok L s.
Proof.
  intros H ND F E. destruct (init_chain_inv _ _ _ _ _ E) as (s2 & E2 & K).
  assert (G : forall l st, missed_ok L st -> NoDup (map (fun g => fst (fst g)) l) ->
              (forall g, In g l -> length (fst (fst g)) = L /\ aget (sinfo st) (fst (fst g)) = None) ->
              missed_ok L (fold_left genesis_validator l st)).
  { induction l as [|g l IH]; cbn [fold_left]; intros st Hst N Fl; [exact Hst|].
    inversion N as [|? ? NI N']; subst. destruct (Fl g (or_introl eq_refl)) as [Hl Hn].
    apply IH; auto; [apply genesis_validator_mok; auto|].
    intros g' I'. destruct (Fl g' (or_intror I')) as [Hl' Hn']. split; auto.
    rewrite genesis_validator_sinfo; [exact Hn'|]. intros Eg. apply NI.
    pose proof (in_map (fun g => fst (fst g)) _ _ I') as IM. cbn beta in IM. rewrite <- Eg in IM. exact IM. }
  pose proof (c_update _ _ (missed_closed L) _ _ _ E2 (G gvals s0 H ND F)) as H2.
  destruct K as [->|K]; [exact H2|]. bank_only (bank_mint_sets _ _ _ _ K). exact H2.
Qed.

Theorem counter_is_the_number_of_missed_entries L s a si : missed_ok L s -> aget (sinfo s) a = Some si ->
  si_missed si = Z.of_nat (length (filter (fun p => snd p && key_of a (fst p)) (missed s))).
Proof. intros (_ & _ & H & _) E. exact (proj2 (H a si E)). Qed.
