(* a small concrete genesis and history used as non-vacuity witnesses by the Props files *)
From Coq Require Import List ZArith NArith.
From PM Require Import Base.Bytes Store.KV App.Model App.BankProofs.
Import ListNotations.
Local Open Scope Z_scope.

Definition A1 : bytes := [1;1]%N.  Definition A2 : bytes := [2;2]%N.  Definition A3 : bytes := [3;3]%N.
Definition FEE : bytes := [240]%N. Definition POOL : bytes := [241]%N. Definition POS : bytes := [242]%N. Definition DAO : bytes := [243]%N.
Definition ex_pp : pparams :=
  {| p_unstaking_time := 10; p_max_validators := 2; p_min_stake := 1000000; p_max_evidence_age := 100;
     p_window := 3; p_min_signed := 500000000000000000; p_downtime_jail := 5;
     p_slash_ds := 50000000000000000; p_slash_dt := 10000000000000000 |}.
Definition ex_s0 : state :=
  {| accts := [(A1, 5000000); (A2, 3000000); (A3, 7); (POOL, 2000000)]; supply := 10000007;
     vals := []; powidx := []; prevpow := []; prevtotal := 0; unstq := []; sinfo := []; missed := [];
     awards := []; burns := []; proposer := None; pkrel := []; pp := ex_pp;
     ap := {| a_max_memo := 256; a_sig_limit := 7; a_fee_default := 1; a_fee_multis := [] |};
     ma := {| m_fee := FEE; m_pool := POOL; m_pos := POS; m_dao := DAO |};
     acl := [([1]%N, A1)]; dao_owner := A1; params_raw := []; height := 0; btime := 0;
     haspk := [(A1, A1); (A2, A2); (A3, A3)] |}.
Definition ex_genesis := init_chain ex_s0 [(A1, [11]%N, 2000000)] 500.
Definition ex_tx (m : msg) (signer : bytes) (fee : Z) : tx :=
  {| t_msg := m; t_fee := fee; t_memo_len := 0; t_attached := Some signer; t_multi_count := 0;
     t_signed_by := signer; t_mutated := false; t_sig_empty := false; t_in_index := false; t_gov_fee := 10000 |}.
Definition ex_ops : list op :=
  [ OBegin 1 100 A1 [] [];
    OTx (ex_tx (MStake [22]%N A2 1500000) A2 0);
    OAward A3 40;
    OEnd; OCommit;
    OBegin 2 101 A1 [{| vo_addr := A1; vo_power := 2; vo_signed := false |}] [];
    OTx (ex_tx (MUnstake A2) A2 0);
    OTx (ex_tx (MSend A1 A3 10) A2 0);              (* wrong key: rejected *)
    OEnd; OCommit;
    OBegin 3 120 A1 [{| vo_addr := A1; vo_power := 2; vo_signed := false |}] [];
    OEnd; OCommit ].
Definition ex_final : option state :=
  match ex_genesis with Some (s, _) => run ex_ops s | None => None end.

Lemma ex_s0_bank_ok : bank_ok ex_s0.
Proof.
  unfold bank_ok, binv. split; [|split; [reflexivity|]].
  - simpl. repeat split; intros y Hy; repeat (destruct Hy as [<-|Hy]; [reflexivity|]); destruct Hy.
  - intros k b. simpl.
    repeat (match goal with |- context[bcompare k ?X] => destruct (bcompare k X) end; try discriminate;
            try (intros [= <-]; vm_compute; discriminate)).
Qed.
(* The example genesis is evaluated once, to a literal, and every example that needs a fact about its result gets the
   equation in [init_chain] form through [ex_genesis_has]: converting `ex_genesis = _` into `init_chain _ _ _ = _`
   inside a proof makes the kernel compare two unevaluated states field by field, which is slow. *)
Lemma ex_genesis_runs : exists s ups, init_chain ex_s0 [(A1, [11]%N, 2000000)] 500 = Some (s, ups).
Proof. vm_compute. eauto. Qed.
Lemma ex_genesis_has (P : state -> Prop) :
  (forall s ups, init_chain ex_s0 [(A1, [11]%N, 2000000)] 500 = Some (s, ups) -> P s) ->
  exists s ups, ex_genesis = Some (s, ups) /\ P s.
Proof. intros H. destruct ex_genesis_runs as (s & ups & E). exists s, ups. split; [exact E|exact (H s ups E)]. Qed.
Lemma ex_final_some : exists s, ex_final = Some s /\ supply s = 10000547 /\
  aget (accts s) A2 = Some 3000000 /\ aget (vals s) A2 = None /\ aget (accts s) A3 = Some 47.
Proof. vm_compute. eexists; repeat split; reflexivity. Qed.
Lemma ex_award_paid : exists s, ex_final = Some s /\ aget (accts s) A3 = Some 47.
Proof. destruct ex_final_some as (s & E & _ & _ & _ & A). eauto. Qed.
