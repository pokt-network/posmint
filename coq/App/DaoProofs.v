(* C17 (DAO funds), over whole histories: the balance of the DAO account goes down only through a delivered DAO
   message of the DAO owner, and then by at most the stated amount - no block processing (rewards, awards, slashes,
   burns, maturity), no other transaction, nobody's fees ever take a token out of it.
   Premises: the module accounts have distinct addresses, no transaction is signed by the pool's or the DAO's address. *)
From Coq Require Import List ZArith NArith Bool Lia.
From PM Require Import Base.Bytes App.Model App.Walk App.BankProofs App.PoolProofs.
Import ListNotations.
Local Open Scope Z_scope.

Section Dao.
Variable MA : modaddrs.
Notation X := (m_dao MA).
Hypothesis Dfee : m_fee MA <> X.
Hypothesis Dpos : m_pos MA <> X.

Definition nd (s s' : state) : Prop := bal s X <= bal s' X.
Lemma nd_refl s : nd s s. Proof. unfold nd. lia. Qed.
Lemma nd_trans s1 s2 s3 : nd s1 s2 -> nd s2 s3 -> nd s1 s3. Proof. unfold nd. lia. Qed.
Lemma send_nd s f t amt s' : f <> X -> bank_send s f t amt = Some s' -> nd s s'.
Proof.
  intros Nf E. destruct (bal_send s f t amt s' X E) as [N Eb]. unfold nd. rewrite Eb.
  destruct (beqb f X) eqn:Bf; [apply beqb_eq in Bf; contradiction|]. destruct (beqb t X); lia.
Qed.
Lemma burn_nd s m amt s' : m <> X -> bank_burn s m amt = Some s' -> nd s s'.
Proof.
  intros Nm E. destruct (bal_burn s m amt s' X E) as [N Eb]. unfold nd. rewrite Eb.
  destruct (beqb m X) eqn:Bm; [apply beqb_eq in Bm; contradiction|]. lia.
Qed.
Lemma mint_nd s m amt s' : bank_mint s m amt = Some s' -> nd s s'.
Proof. intros E. destruct (bal_mint s m amt s' X E) as [N Eb]. unfold nd. rewrite Eb. destruct (beqb m X); lia. Qed.

Lemma burn_staked_nd s amt s' : burn_staked s amt = Some s' -> ma s = MA -> m_pool MA <> X -> nd s s'.
Proof. unfold burn_staked. intros E EM D3. destruct (amt <=? 0); [discriminate|]. rewrite EM in E. exact (burn_nd _ _ _ _ D3 E). Qed.

(* the burn of a cut starts from s with the cut record in place: same accounts, supply and module addresses *)
Lemma cut_nd s a v v1 amt : pool_ok MA s ->
  match burn_staked (reindexed s a v v1) amt with Some s3 => nd s s3 | None => nd s (reindexed s a v v1) end.
Proof.
  intros (EM & _ & _ & (_ & _ & D3) & _). unfold reindexed. destruct (set_staked_sets (put_val (del_staked s a v) a v1) a v1) as (ix & ->).
  destruct (burn_staked _ amt) as [s3|] eqn:E3; [exact (burn_staked_nd _ _ _ E3 EM D3)|exact (nd_refl s)].
Qed.

(* the pool invariant kept and the DAO account not drained *)
Definition both (s s' : state) : Prop := pool_ok MA s -> pool_ok MA s' /\ nd s s'.
Lemma both_refl s : both s s.
Proof. intros H. exact (conj H (nd_refl s)). Qed.
Lemma both_trans s1 s2 s3 : both s1 s2 -> both s2 s3 -> both s1 s3.
Proof. intros A B H. destruct (A H) as [H2 N2]. destruct (B H2) as [H3 N3]. exact (conj H3 (nd_trans _ _ _ N2 N3)). Qed.
Lemma both_send s f t amt s' : f <> m_pool MA -> f <> X -> bank_send s f t amt = Some s' -> both s s'.
Proof. intros Np Nx E H. exact (conj (pool_send_other MA _ _ _ _ _ H Np E) (send_nd _ _ _ _ _ Nx E)). Qed.

Definition op_okd (o : op) : Prop :=
  match o with OTx t => msg_signer (t_msg t) <> m_pool MA /\ msg_signer (t_msg t) <> X | _ => True end.
(* ante, whatever the message: the fee comes from the signer; the DAO owner stays *)
Lemma ante_b s t s' : op_okd (OTx t) -> ante s t = Some s' -> both s s' /\ dao_owner s' = dao_owner s.
Proof.
  intros [K1 K2] E. apply ante_inv in E. split; [exact (both_send _ _ _ _ _ K1 K2 E)|]. bank_only (bank_send_sets _ _ _ _ _ E). reflexivity.
Qed.

(* every operation but a DAO message *)
Definition nodao (o : op) : Prop := op_okd o /\ forall t f to amt act, o = OTx t -> t_msg t <> MDao f to amt act.

Theorem dao_closed : closed nodao both.
Proof.
  pose proof both_refl as R. pose proof both_trans as T. pose proof (pool_closed MA) as C.
  assert (Fr : forall s s', (pool_ok MA s -> pool_ok MA s') -> accts s' = accts s -> both s s').
  { intros s s' F EA H. split; [exact (F H)|]. unfold nd, bal. rewrite EA. lia. }
  assert (Sg : sign_in both) by (intros s si mi; apply Fr; auto).
  assert (Fo : force_in both).
  { intros s a v s' E F H. split; [apply (force_unstake_tied MA s a v s' H E F)|]. pose proof H as (EM & _ & _ & (_ & _ & D3) & _).
    revert F. unfold force_unstake.
    set (s1 := if (v_status v =? 1)%N then del_unstaking (del_staked s a v) a v else del_staked s a v).
    assert (H1 : ma s1 = MA /\ nd s s1) by (unfold s1; destruct (v_status v =? 1)%N; exact (conj EM (nd_refl s))).
    destruct H1 as (EM1 & N1). destruct (0 <? v_tokens v); [|intros [= <-]; exact N1].
    destruct (burn_staked s1 (v_tokens v)) as [s2|] eqn:E2; [|discriminate]. intros [= <-].
    exact (nd_trans _ _ _ N1 (burn_staked_nd _ _ _ E2 EM1 D3)). }
  assert (Ja : jail_in both).
  { intros s a s' E. apply Fr; [intros H; apply (jail_tied MA s a s' H E)|].
    destruct (jail_inv _ _ _ E) as (v & _ & _ & ->). reflexivity. }
  assert (Sl : slash_in both).
  { apply (walk_slash both R T); [|exact Fo]. intros s a v sa E St burn s2. pose proof (cut_tied MA s a v sa) as Cu.
    pose proof (cut_nd s a v (with_tokens v (v_tokens v - burn)) burn) as N2. cbv zeta in Cu. fold burn s2 in Cu, N2.
    destruct (burn_staked s2 burn); intros H; exact (conj (proj1 (Cu H E St)) (N2 H)). }
  constructor; auto; try (intros; apply Fr; [intros H; exact H|reflexivity]).
  - (* c_reward *) intros s p s'. unfold reward_from_fees. intros E H. pose proof H as (EM & _ & _ & (D1 & D2 & _) & _). revert E. rewrite EM.
    destruct (bank_send s (m_fee MA) (m_pos MA) _) as [s1|] eqn:E1; [|discriminate].
    destruct (both_send _ _ _ _ _ (not_eq_sym D1) Dfee E1 H) as [H1 N1].
    destruct (get_val s1 p); [|intros [= <-]; exact (conj H1 N1)]. rewrite (proj1 H1). intros E2.
    destruct (both_send _ _ _ _ _ (not_eq_sym D2) Dpos E2 H1) as [H2 N2]. exact (conj H2 (nd_trans _ _ _ N1 N2)).
  - (* c_award *) intros s a amt _ H. split; [apply mint_award_pool, H|]. pose proof H as (EM & _ & _ & (_ & _ & D3) & _). unfold mint_award. rewrite EM.
    destruct (bank_mint s (m_pool MA) amt) as [s1|] eqn:E1; [|apply nd_refl].
    pose proof (mint_nd _ _ _ _ E1) as N1. rewrite (mint_ma _ _ _ _ E1), EM.
    destruct (bank_send s1 (m_pool MA) a amt) as [s2|] eqn:E2; [|exact N1]. exact (nd_trans _ _ _ N1 (send_nd _ _ _ _ _ D3 E2)).
  - (* c_vote *) apply (walk_vote both R T Sl Ja Sg).
  - (* c_evidence *) apply (walk_evidence both R T Sl Ja Fo Sg).
  - (* c_update *) apply (walk_update both R T). intros s p t. apply Fr; auto.
  - (* c_mature *) apply (walk_mature both R T); [|intros s k; apply Fr; auto]. intros s a v s' E St F H.
    split; [apply (finish_unstaking_tied MA s a v s' H E St F)|]. pose proof H as (EM & _ & _ & (_ & _ & D3) & _).
    destruct (finish_unstaking_inv _ _ _ _ F) as (ac & su & E2 & ->). rewrite EM in E2.
    exact (send_nd (del_unstaking s a v) _ _ _ _ D3 E2).
  - (* c_ante *) intros t [K _] s s' E. exact (proj1 (ante_b s t s' K E)).
  - (* c_handle *) intros t [[K1 K2] ND] s H. split; [exact (c_handle _ _ C t K1 s H)|].
    destruct (t_msg t) as [pk a amt|a|a|f to amt|f key v raw wf|f to amt act|f h raw] eqn:Em; cbn [msg_signer] in K1, K2;
      [|cbn [handle]| |cbn [handle]..].
    + destruct (stake_inv s pk a amt) as [->|(v0 & s1 & G & _ & _ & _ & K)]; [apply nd_refl|].
      assert (N1 : nd s s1) by (destruct G as [[_ ->]|(_ & _ & ->)]; exact (nd_refl s)).
      destruct K as [[_ ->]|(s2 & E & K)]; [exact N1|].
      apply (nd_trans _ _ _ N1). apply (nd_trans _ _ _ (send_nd _ _ _ _ _ K2 E)). cbv zeta in K.
      set (v1 := with_status (with_tokens v0 (v_tokens v0 + amt)) 2) in K.
      destruct (set_staked_sets (put_val s2 a v1) a v1) as (ix & Ex).
      rewrite Ex in K. destruct K as [[-> _]|[-> _]]; exact (nd_refl s2).
    + destruct (get_val s a) as [v|]; [|apply nd_refl]. destruct (negb _); [apply nd_refl|]. destruct (_ <? _); [apply nd_refl|]. exact (nd_refl s).
    + destruct (unjail_inv s a) as [->|(v & si & _ & _ & _ & _ & _ & _ & _ & ->)]; [apply nd_refl|]. cbn [hres_state].
      destruct (set_staked_sets (put_val s a (with_jailed v false)) a (with_jailed v false)) as (ix & ->). exact (nd_refl s).
    + destruct (bank_send s f to amt) as [s1|] eqn:E; [|apply nd_refl]. exact (send_nd _ _ _ _ _ K2 E).
    + destruct (negb _); [apply nd_refl|]. destruct wf; [|apply nd_refl]. unfold apply_param. destruct v; exact (nd_refl s).
    + destruct (ND t f to amt act eq_refl Em).
    + destruct (negb _); exact (nd_refl s).
Qed.

Theorem step_dao s o s' : pool_ok MA s -> op_okd o -> step s o = Some s' ->
  pool_ok MA s' /\ (nd s s' \/ exists t f to amt act, o = OTx t /\ t_msg t = MDao f to amt act /\ beqb (dao_owner s) f = true /\ 0 <= amt /\ bal s X - amt <= bal s' X).
Proof.
  intros H K E. split; [apply (step_pool MA s o s' H); [destruct o; cbn in *; auto; apply K|exact E]|].
  assert (G : nodao o -> nd s s') by (intros Q; exact (proj2 (closed_step _ _ dao_closed s o s' Q E H))).
  destruct o as [h t p vs es|t|a amt|a sev| |]; try (left; apply G; split; [exact K|intros; discriminate]).
  destruct (t_msg t) as [pk a amt|a|a|f to amt|f key v raw wf|f to amt act|f h raw] eqn:Em;
    try (left; apply G; split; [exact K|intros t0 f0 to0 amt0 act0 [= <-]; congruence]).
  (* the DAO message: ante as for any transaction, then the owner's transfer or burn *)
  clear G. cbn [step] in E. injection E as <-. unfold deliver_tx. destruct (_ || _); [left; apply nd_refl|].
  destruct (ante s t) as [s1|] eqn:Ea; [|left; apply nd_refl].
  destruct (ante_b s t s1 K Ea) as [B1 O1]. destruct (B1 H) as [(EM & _) N1]. unfold nd in N1. rewrite Em. cbn [handle].
  destruct (beqb (dao_owner s1) f) eqn:Ow; cbn [negb]; [|left; exact N1]. rewrite EM. rewrite O1 in Ow. destruct (act =? 1)%N.
  - destruct (bank_send s1 X to amt) as [s2|] eqn:E; [|left; exact N1]. cbn [dres_state].
    destruct (bal_send _ _ _ _ _ X E) as [Pa Eb]. rewrite beqb_refl in Eb.
    right. exists t, f, to, amt, act. repeat split; auto. rewrite Eb. destruct (beqb to X); lia.
  - destruct (act =? 2)%N; [|left; exact N1]. destruct (bank_burn s1 X amt) as [s2|] eqn:E; [|left; exact N1]. cbn [dres_state].
    destruct (bal_burn _ _ _ _ X E) as [Pa Eb]. rewrite beqb_refl in Eb.
    right. exists t, f, to, amt, act. repeat split; auto. rewrite Eb. lia.
Qed.
End Dao.
