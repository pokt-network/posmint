(* C05: the validator updates returned by EndBlock (and InitChain) can always be applied to the set
   the module has told Tendermint so far (prevpow = the module's own record of Tendermint's set): no address twice
   in one batch, no negative power, a removal (power 0) only of an address that set contains; and the module's
   record afterwards is exactly that set with the batch applied. For every state with a sound power index, no
   negative stake and a sorted record.
   Both this and what the set IS afterwards (the top of the power index) are read off one description of the batch:
   with w the first MaxValidators addresses of the index, highest key first, it is the present power of every
   address of w whose record differs from it, then power 0 for every recorded address outside w
   ([update_tm_eq]). *)
From Coq Require Import List ZArith NArith Bool Lia.
From PM Require Import Base.Bytes Store.KV Store.MergeProofs Store.KVProofs App.Model App.IndexProofs.
Import ListNotations.
Local Open Scope Z_scope.

Definition apply_update (m : amap Z) (u : update) : amap Z :=
  if snd u =? 0 then adel m (fst u) else aset m (fst u) (snd u).
Definition apply_updates (ups : list update) (m : amap Z) : amap Z := fold_left apply_update ups m.
Definition applicable (m : amap Z) (ups : list update) : Prop :=
  NoDup (map fst ups) /\ (forall a p, In (a, p) ups -> 0 <= p) /\ (forall a, In (a, 0) ups -> aget m a <> None).
Definition mem (a : bytes) (l : list bytes) : bool := existsb (beqb a) l.

Lemma apply_updates_app u1 u2 m : apply_updates (u1 ++ u2) m = apply_updates u2 (apply_updates u1 m).
Proof. unfold apply_updates. apply fold_left_app. Qed.
Lemma apply_updates_sorted ups : forall m, asorted m -> asorted (apply_updates ups m).
Proof.
  induction ups as [|u r IH]; simpl; auto. intros m S. apply IH. unfold apply_update.
  destruct (snd u =? 0); [apply adel_sorted|apply aset_sorted]; auto.
Qed.

Lemma mem_in a l : mem a l = true <-> In a l.
Proof.
  unfold mem. rewrite existsb_exists. split.
  - intros (x & Hx & B). apply beqb_eq in B. subst; auto.
  - intros H. exists a. split; auto. apply beqb_refl.
Qed.
Lemma mem_filter a f l : mem a (filter f l) = f a && mem a l.
Proof. apply eq_true_iff_eq. rewrite andb_true_iff, !mem_in, filter_In. tauto. Qed.

(* a batch with one power per address, read at a *)
Lemma aget_apply_updates (f : bytes -> Z) a l : forall m, asorted m ->
  aget (apply_updates (map (fun b => (b, f b)) l) m) a =
  if mem a l then (if f a =? 0 then None else Some (f a)) else aget m a.
Proof.
  induction l as [|b l IH]; intros m S; [reflexivity|].
  change (mem a (b :: l)) with (beqb a b || mem a l). unfold apply_updates in *. cbn [map fold_left].
  rewrite IH by exact (apply_updates_sorted [_] m S).
  destruct (mem a l); [rewrite orb_true_r; reflexivity|]. rewrite orb_false_r.
  pose proof (beqb_sym b a) as B.
  unfold apply_update. cbn [fst snd]. destruct (beqb a b) eqn:Bab.
  - apply beqb_eq in Bab. subst b. destruct (f a =? 0); [rewrite aget_adel|rewrite aget_aset]; auto; rewrite B; reflexivity.
  - destruct (f b =? 0); [rewrite aget_adel|rewrite aget_aset]; auto; rewrite B; reflexivity.
Qed.

Lemma NoDup_app' {A} (l1 l2 : list A) : NoDup l1 -> NoDup l2 -> (forall x, In x l1 -> ~ In x l2) -> NoDup (l1 ++ l2).
Proof.
  induction l1 as [|x l1 IH]; simpl; intros N1 N2 D; auto. inversion N1; subst. constructor.
  - intros Hin. apply in_app_or in Hin. destruct Hin; [contradiction|]. apply (D x); auto.
  - apply IH; auto.
Qed.
Lemma in_firstn {A} n (l : list A) x : In x (firstn n l) -> In x l.
Proof. intros I. rewrite <- (firstn_skipn n l). apply in_or_app. left. exact I. Qed.
Lemma mem_keys {X} (m : amap X) a : asorted m -> mem a (map fst m) = match aget m a with Some _ => true | None => false end.
Proof.
  intros S. destruct (aget m a) as [x|] eqn:E.
  - apply mem_in. apply aget_in in E. exact (in_map fst _ _ E).
  - apply not_true_is_false. rewrite mem_in, in_map_iff. intros ([k x] & <- & I). cbn [fst] in E. rewrite (in_aget _ _ _ S I) in E. discriminate.
Qed.

(* an address stands under one key only (its rank key), so the addresses of a sound index are pairwise distinct *)
Lemma idx_addrs_nodup V P : isound V P -> NoDup (map snd P).
Proof.
  intros (_ & SP & H).
  apply (NoDup_map_inv (fun a => match aget V a with Some v => rank_key (v_tokens v) a | None => [] end)).
  rewrite map_map, (map_ext_in _ fst); [apply sorted_keys_nodup, SP|].
  intros [k a] I. destruct (H k a (in_aget _ _ _ SP I)) as (v & Ev & _ & _ & ->). cbn [fst snd]. rewrite Ev. reflexivity.
Qed.
Lemma rev_index_sound s k a : idx_sound s -> In (k, a) (rev (powidx s)) ->
  exists v, get_val s a = Some v /\ v_status v = 2%N /\ v_jailed v = false.
Proof.
  intros (_ & SP & H) I. apply in_rev in I. destruct (H k a (in_aget _ _ _ SP I)) as (v & Ev & St & J & _). eauto.
Qed.

Definition vpower (V : amap validator) (a : bytes) : Z :=
  match aget V a with Some v => power_of (v_tokens v) | None => 0 end.
Definition stale (V : amap validator) (prev : amap Z) (a : bytes) : bool :=
  match aget prev a with Some p => negb (p =? vpower V a) | None => true end.

(* over staked validators the loop visits w = the first n addresses of idx: it strikes them off prev, and emits
   (and records) the power of those whose entry in prev differs. That the addresses are distinct is what lets
   "differs" be read in the initial prev.
   By induction on idx; nothing happens when idx or n runs out. In the step, [S1] says what the head's turn does
   (its update [step] if stale, nothing otherwise, to acc and to prevpow alike); the induction hypothesis then runs
   on the tail with a struck off prev, and the filter over the tail is the same in prev and in adel prev a because
   a is not in the tail. *)
Lemma upd_loop_eq V idx : forall n s prev total acc s' prev' total' acc',
  vals s = V -> (forall k a, In (k, a) idx -> exists v, aget V a = Some v /\ v_status v = 2%N) ->
  NoDup (map snd idx) -> asorted prev ->
  upd_loop idx n s prev total acc = Some (s', prev', total', acc') ->
  let w := map snd (firstn n idx) in
  let new := map (fun a => (a, vpower V a)) (filter (stale V prev) w) in
  NoDup w /\ (forall a, In a w -> vpower V a <> 0) /\
  prev' = apply_updates (map (fun a => (a, 0)) w) prev /\ acc' = rev new ++ acc /\
  prevpow s' = apply_updates new (prevpow s).
Proof.
  induction idx as [|[k a] r IH]; intros n s prev total acc s' prev' total' acc' EV Hidx ND SP; destruct n; simpl.
  1-3: intros [= <- <- _ <-]; split; [constructor|]; split; [intros ? []|repeat split].
  unfold get_val. rewrite EV. destruct (Hidx k a (or_introl eq_refl)) as (v & Ev & St). rewrite Ev, St.
  destruct (v_jailed v); [discriminate|]. destruct (power_of (v_tokens v) =? 0) eqn:P0; [discriminate|].
  cbn [N.eqb Pos.eqb].
  assert (Ea : power_of (v_tokens v) = vpower V a) by (unfold vpower; rewrite Ev; reflexivity). rewrite Ea in *.
  cbn [map snd] in ND. apply NoDup_cons_iff in ND. destruct ND as [NI ND'].
  set (step := if stale V prev a then [(a, vpower V a)] else []).
  match goal with |- context[let '(s1, acc1) := ?X in _] => destruct X as [s1 acc1] eqn:EX end.
  assert (S1 : vals s1 = vals s /\ acc1 = step ++ acc /\ prevpow s1 = apply_updates step (prevpow s)).
  { unfold step, stale. destruct (aget prev a) as [p|]; [destruct (p =? vpower V a)|]; injection EX as <- <-;
      repeat split; unfold apply_updates, apply_update; cbn [negb fold_left fst snd]; rewrite ?P0; reflexivity. }
  destruct S1 as (EV1 & -> & P1). intros E.
  assert (Sub : forall b, In b (map snd (firstn n r)) -> In b (map snd r)).
  { intros b. rewrite <- firstn_map. apply in_firstn. }
  apply IH in E; [|rewrite EV1; exact EV|intros; eapply Hidx; right; eauto|exact ND'|apply adel_sorted; exact SP].
  cbv zeta in E. destruct E as (NDw & NZ & -> & -> & ->).
  rewrite (filter_ext_in (stale V (adel prev a)) (stale V prev)).
  2:{ intros b Hb. unfold stale. rewrite aget_adel by exact SP.
      destruct (beqb a b) eqn:B; [|reflexivity]. apply beqb_eq in B. subst b. elim NI. apply Sub, Hb. }
  split; [constructor; [intros Hb; apply NI, Sub, Hb|exact NDw]|].
  split; [intros b [<-|Hb]; [apply Z.eqb_neq, P0|apply NZ, Hb]|].
  split; [reflexivity|].
  rewrite P1. unfold step. destruct (stale V prev a); cbn [map rev]; rewrite <- ?app_assoc; split; reflexivity.
Qed.

Lemma leftover_fold_prev l : forall s1 s2,
  fold_opt (fun st (p : bytes * Z) => match get_val st (fst p) with
                                      | None => None
                                      | Some _ => Some (set_prev st (adel (prevpow st) (fst p)) (prevtotal st)) end) l s1 = Some s2 ->
  prevpow s2 = apply_updates (map (fun p => (fst p, 0)) l) (prevpow s1).
Proof.
  induction l as [|p r IH]; simpl; intros s1 s2; [intros [= <-]; reflexivity|].
  destruct (get_val s1 (fst p)); [|discriminate]. intros E. rewrite (IH _ _ E). reflexivity.
Qed.

Lemma update_tm_eq s s' ups : idx_sound s -> asorted (prevpow s) -> update_tm_validators s = Some (s', ups) ->
  let w := map snd (firstn (Z.to_nat (p_max_validators (pp s))) (rev (powidx s))) in
  let left := apply_updates (map (fun a => (a, 0)) w) (prevpow s) in
  NoDup w /\ (forall a, In a w -> vpower (vals s) a <> 0) /\
  ups = map (fun a => (a, vpower (vals s) a)) (filter (stale (vals s) (prevpow s)) w) ++ map (fun p => (fst p, 0)) left /\
  prevpow s' = apply_updates ups (prevpow s).
Proof.
  intros HS SS. unfold update_tm_validators.
  destruct (upd_loop _ _ s (prevpow s) 0 []) as [[[[s1 leftover] total] acc]|] eqn:E; [|discriminate].
  apply (upd_loop_eq (vals s)) in E; [|reflexivity| |rewrite map_rev; apply NoDup_rev, (idx_addrs_nodup _ _ HS)|exact SS].
  2:{ intros k a I. destruct (rev_index_sound s k a HS I) as (v & Ev & St & _). eauto. }
  cbv zeta in E. destruct E as (NDw & NZ & -> & -> & P1). rewrite app_nil_r, rev_involutive.
  destruct (fold_opt _ _ s1) as [s2|] eqn:E2; [|discriminate]. apply leftover_fold_prev in E2. intros [= <- <-].
  split; [exact NDw|]. split; [exact NZ|]. split; [reflexivity|].
  transitivity (prevpow s2); [destruct (_ ++ _); reflexivity|]. rewrite E2, P1. symmetry. apply apply_updates_app.
Qed.

Theorem updates_applicable s s' ups : idx_sound s -> (forall a v, get_val s a = Some v -> 0 <= v_tokens v) ->
  asorted (prevpow s) -> update_tm_validators s = Some (s', ups) ->
  applicable (prevpow s) ups /\ prevpow s' = apply_updates ups (prevpow s) /\ asorted (prevpow s').
Proof.
  intros HS NN SS E. pose proof (update_tm_eq s s' ups HS SS E) as H. cbv zeta in H.
  set (w := map snd (firstn _ _)) in H. set (left := apply_updates _ (prevpow s)) in H.
  destruct H as (NDw & NZ & -> & P).
  assert (SL : asorted left) by (apply apply_updates_sorted, SS).
  assert (GL : forall a, aget left a = if mem a w then None else aget (prevpow s) a).
  { intros a. exact (aget_apply_updates (fun _ => 0) a w _ SS). }
  split; [|split; [exact P|rewrite P; apply apply_updates_sorted, SS]]. split; [|split].
  - rewrite map_app, !map_map. cbn [fst]. rewrite map_id. apply NoDup_app'.
    + apply NoDup_filter, NDw.
    + apply sorted_keys_nodup, SL.
    + intros a Ia Il. apply filter_In in Ia. apply mem_in in Il. rewrite mem_keys, GL in Il by exact SL.
      rewrite (proj2 (mem_in a w) (proj1 Ia)) in Il. discriminate.
  - intros a p I. apply in_app_or in I. destruct I as [I|I]; apply in_map_iff in I; destruct I as (x & [= <- <-] & _); [|lia].
    unfold vpower. destruct (aget (vals s) x) as [v|] eqn:Ev; [|lia]. apply Z.quot_pos; [exact (NN x v Ev)|lia].
  - intros a I. apply in_app_or in I. destruct I as [I|I]; apply in_map_iff in I; destruct I as (x & Ex & I).
    + injection Ex as -> Z0. apply filter_In in I. elim (NZ a (proj1 I) Z0).
    + injection Ex as <-. destruct x as [b x]. apply (in_aget _ _ _ SL) in I. rewrite GL in I.
      destruct (mem b w); [discriminate|]. cbn [fst]. rewrite I. discriminate.
Qed.

(* C05: what Tendermint's set IS after the update: the top of the power index *)
Theorem tm_set_is_top_of_index s s' ups : idx_sound s -> dsorted true (prevpow s) -> update_tm_validators s = Some (s', ups) ->
  let walked := map snd (firstn (Z.to_nat (p_max_validators (pp s))) (rev (powidx s))) in
  forall a, aget (prevpow s') a =
            if mem a walked then option_map (fun v => power_of (v_tokens v)) (get_val s a) else None.
Proof.
  intros HS SS E walked a. destruct (update_tm_eq s s' ups HS SS E) as (_ & NZ & -> & ->). fold walked in NZ |- *.
  rewrite apply_updates_app, <- (map_map fst (fun b => (b, 0))).
  rewrite (aget_apply_updates (fun _ => 0)), mem_keys by (repeat apply apply_updates_sorted; exact SS).
  rewrite (aget_apply_updates (fun _ => 0)), (aget_apply_updates (vpower (vals s))), mem_filter by exact SS.
  destruct (mem a walked) eqn:M.
  - apply mem_in in M. specialize (NZ a M). rewrite andb_true_r, (proj2 (Z.eqb_neq _ _) NZ).
    unfold stale, vpower, get_val in *. destruct (aget (vals s) a) as [v|]; [|elim NZ; reflexivity].
    destruct (aget (prevpow s) a) as [p|]; [destruct (Z.eqb_spec p (power_of (v_tokens v))); [subst p|]|]; reflexivity.
  - rewrite andb_false_r. destruct (aget (prevpow s) a); reflexivity.
Qed.

Lemma walked_sound s n a : idx_sound s -> mem a (map snd (firstn n (rev (powidx s)))) = true ->
  exists v, get_val s a = Some v /\ v_status v = 2%N /\ v_jailed v = false.
Proof.
  intros HS M. apply mem_in, in_map_iff in M. destruct M as ([k a'] & <- & I).
  exact (rev_index_sound s k a' HS (in_firstn _ _ _ I)).
Qed.

(* C09: from the validator-set update on, a jailed (or not staked) validator is not in the set the module reports to
   Tendermint - whatever power it had before *)
Theorem jailed_absent_from_tm_set s s' ups a v : idx_sound s -> dsorted true (prevpow s) -> update_tm_validators s = Some (s', ups) ->
  get_val s a = Some v -> (v_jailed v = true \/ v_status v <> 2%N) -> aget (prevpow s') a = None.
Proof.
  intros HS SS E Ev Bad. rewrite (tm_set_is_top_of_index s s' ups HS SS E a). cbv zeta.
  destruct (mem a _) eqn:M; [|reflexivity].
  destruct (walked_sound _ _ _ HS M) as (w & Ew & St & J). rewrite Ev in Ew. injection Ew as <-.
  destruct Bad as [Bj|Bs]; congruence.
Qed.
(* ... and whoever is in it is staked, not jailed, and there with exactly the power of its stake *)
Theorem member_has_the_power_of_its_stake s s' ups a p : idx_sound s -> dsorted true (prevpow s) -> update_tm_validators s = Some (s', ups) ->
  aget (prevpow s') a = Some p -> exists v, get_val s a = Some v /\ v_status v = 2%N /\ v_jailed v = false /\ p = power_of (v_tokens v).
Proof.
  intros HS SS E Ep. rewrite (tm_set_is_top_of_index s s' ups HS SS E a) in Ep. cbv zeta in Ep.
  destruct (mem a _) eqn:M; [|discriminate].
  destruct (walked_sound _ _ _ HS M) as (w & Ew & St & J). exists w. rewrite Ew in Ep. injection Ep as <-. auto.
Qed.
