(* Restart from an exported state (x/pos/genesis.go ExportGenesis / InitGenesis).
   ExportGenesis carries the validator RECORDS; InitGenesis rebuilds the two secondary structures (power index,
   unstaking queue) from them with the same primitives the handlers use (SetValidator, SetStakedValidator,
   SetUnstakingValidator). Proved here, for every state that satisfies the history-level invariants of
   IndexProofs/IndexComplete/QueueProofs (i.e. every reachable state):
     - the power index and the membership of the unstaking queue are FUNCTIONS of the live records: two states with
       the same live records and the invariants have the same index (as a value) and the same queue membership;
     - the state InitGenesis builds from any list of live records with distinct addresses satisfies all four
       invariants and holds exactly those records;
     - hence exporting a reachable state and importing it gives back the same index, the same queue membership and
       the same live records: a restart is the identity on what C05/C06 speak about.
   The export/import stream of the `app` engine (bin/props/xicheck.py) checks exactly these projections on the
   real ExportGenesis/InitGenesis. *)
From Coq Require Import List ZArith NArith Bool.
From PM Require Import Base.Bytes Store.KV Store.MergeProofs Store.KVProofs Store.DirtyProofs App.Model App.IndexProofs App.IndexComplete App.QueueProofs.
Import ListNotations.

Definition live (o : option validator) : option validator :=
  match o with Some v => if (v_status v =? 0)%N then None else Some v | None => None end.
Definition same_live (V V' : amap validator) : Prop := forall a, live (aget V a) = live (aget V' a).

Lemma same_live_sym V V' : same_live V V' -> same_live V' V.
Proof. intros H a. symmetry. apply H. Qed.
Lemma same_live_get V V' a v : same_live V V' -> aget V a = Some v -> v_status v <> 0%N -> aget V' a = Some v.
Proof.
  intros H E St. specialize (H a). rewrite E in H. unfold live in H at 1.
  destruct (v_status v =? 0)%N eqn:B; [apply N.eqb_eq in B; contradiction|].
  unfold live in H. destruct (aget V' a) as [w|]; [|discriminate]. destruct (v_status w =? 0)%N; [discriminate|]. congruence.
Qed.

Lemma index_half V P V' P' k a : isound V P -> icomp V' P' -> same_live V V' -> aget P k = Some a -> aget P' k = Some a.
Proof.
  intros (_ & _ & HS) (_ & _ & _ & HC) L E. destruct (HS k a E) as (v & Ev & St & J & ->).
  apply HC; auto. eapply same_live_get; eauto. rewrite St. discriminate.
Qed.
Theorem index_is_a_function_of_the_records V P V' P' :
  isound V P -> icomp V P -> isound V' P' -> icomp V' P' -> same_live V V' -> P = P'.
Proof.
  intros S C S' C' L. apply amap_ext; [apply S|apply S'|]. intros k.
  destruct (aget P k) as [a|] eqn:E.
  - symmetry. exact (index_half V P V' P' k a S C' L E).
  - destruct (aget P' k) as [b|] eqn:E'; [|reflexivity].
    rewrite (index_half V' P' V P k b S' C (same_live_sym _ _ L) E') in E. discriminate.
Qed.

Lemma queue_half V Q V' Q' k a : qs V Q -> qc V' Q' -> same_live V V' -> queued Q k a -> queued Q' k a.
Proof.
  intros (_ & _ & HS) (_ & _ & HC) L (l & E & I). destruct (HS k l a E I) as (v & Ev & St & <-).
  apply HC; [discriminate| |exact St]. eapply same_live_get; eauto. rewrite St. discriminate.
Qed.
Theorem queue_is_a_function_of_the_records V Q V' Q' :
  qc V Q -> qs V Q -> qc V' Q' -> qs V' Q' -> same_live V V' -> forall k a, queued Q k a <-> queued Q' k a.
Proof.
  intros C S C' S' L k a. split; [exact (queue_half V Q V' Q' k a S C' L)|]. exact (queue_half V' Q' V Q k a S' C (same_live_sym _ _ L)).
Qed.

(* InitGenesis: rebuild from the records *)
Definition imp_one (acc : amap validator * amap bytes * amap (list bytes)) (av : bytes * validator) :=
  let '(V, P, Q) := acc in
  (aset V (fst av) (snd av),
   if v_jailed (snd av) || negb (v_status (snd av) =? 2)%N then P else aset P (rank_key (v_tokens (snd av)) (fst av)) (fst av),
   if (v_status (snd av) =? 1)%N then enqueue Q (qkey (snd av)) (fst av) else Q).
Definition import_from (acc : amap validator * amap bytes * amap (list bytes)) (l : list (bytes * validator)) := fold_left imp_one l acc.
Definition import (l : list (bytes * validator)) := import_from ([], [], []) l.
(* ExportGenesis hands over every record; the unstaked ones are the ones InitGenesis refuses *)
Definition export (V : amap validator) : list (bytes * validator) := filter (fun av => negb (v_status (snd av) =? 0)%N) V.

(* the same three writes on the model state: SetValidator, SetStakedValidator, SetUnstakingValidator *)
Definition import_validator (s : state) (av : bytes * validator) : state :=
  let s1 := set_staked (put_val s (fst av) (snd av)) (fst av) (snd av) in
  if (v_status (snd av) =? 1)%N then set_unstq s1 (enqueue (unstq s1) (qkey (snd av)) (fst av)) else s1.
Lemma import_validator_is_imp_one s av :
  let s' := import_validator s av in (vals s', powidx s', unstq s') = imp_one (vals s, powidx s, unstq s) av.
Proof.
  unfold import_validator, imp_one, set_staked. cbn zeta.
  destruct (v_jailed (snd av) || negb (v_status (snd av) =? 2)%N); destruct (v_status (snd av) =? 1)%N; reflexivity.
Qed.

Definition inv3 (acc : amap validator * amap bytes * amap (list bytes)) : Prop :=
  let '(V, P, Q) := acc in isound V P /\ icomp V P /\ qc V Q /\ qs V Q.

Lemma imp_one_inv V P Q a v : inv3 (V, P, Q) -> aget V a = None -> wf_bytes a -> inv3 (imp_one (V, P, Q) (a, v)).
Proof.
  intros (S & C & QC & QS) Fresh W. unfold imp_one. cbn [fst snd].
  assert (G : aget (aset V a v) a = Some v) by (rewrite aget_aset; rewrite beqb_refl; reflexivity).
  assert (NE : noent P a) by (eapply noent_absent; eauto).
  assert (S1 : isound (aset V a v) P) by (apply is_put; auto).
  assert (C1 : icompx a (aset V a v) P) by (apply icompx_put; auto; apply icomp_weaken; auto).
  assert (AB : absent Q a).
  { apply (absent_not_unstaking V); auto. intros w Ew. rewrite Fresh in Ew. discriminate. }
  split; [|split; [|split]].
  - destruct (v_jailed v || negb (v_status v =? 2)%N) eqn:B; [exact S1|].
    apply orb_false_elim in B. destruct B as [J B]. apply negb_false_iff, N.eqb_eq in B. apply is_set; auto.
  - destruct (v_jailed v || negb (v_status v =? 2)%N) eqn:B.
    + apply (icompx_close a); [exact C1|]. intros w Ew St J. rewrite G in Ew. injection Ew as <-.
      rewrite J, St in B. discriminate.
    + apply (icompx_close a); [apply icompx_ins; auto|]. intros w Ew _ _. rewrite G in Ew. injection Ew as <-.
      rewrite aget_aset. rewrite beqb_refl. reflexivity.
  - assert (Q1 : qcx (Some a) (aset V a v) Q) by (apply qcx_put; apply qcx_weaken; auto).
    destruct (v_status v =? 1)%N eqn:B.
    + apply (qcx_close _ _ a); [apply qc_enqueue; auto|]. intros w Ew _. rewrite G in Ew. injection Ew as <-.
      apply queued_enqueue_self.
    + apply (qcx_close _ _ a); [exact Q1|]. intros w Ew St. rewrite G in Ew. injection Ew as <-. rewrite St in B. discriminate.
  - destruct (v_status v =? 1)%N eqn:B.
    + apply N.eqb_eq in B. apply qs_enqueue_new; auto.
    + apply qs_put_absent; auto.
Qed.

Lemma import_from_spec l : forall V P Q, inv3 (V, P, Q) -> NoDup (map fst l) ->
  (forall a v, In (a, v) l -> aget V a = None /\ wf_bytes a) ->
  let '(V', P', Q') := import_from (V, P, Q) l in
  inv3 (V', P', Q') /\ forall a, aget V' a = match find (fun av => beqb (fst av) a) l with Some av => Some (snd av) | None => aget V a end.
Proof.
  induction l as [|[a v] l IH]; intros V P Q I ND F; [split; auto|].
  apply NoDup_cons_iff in ND. destruct ND as [NI ND]. destruct (F a v (or_introl eq_refl)) as [Fa Wa].
  pose proof (imp_one_inv V P Q a v I Fa Wa) as I1.
  change (import_from (V, P, Q) ((a, v) :: l)) with (import_from (imp_one (V, P, Q) (a, v)) l).
  unfold imp_one in *. cbn [fst snd] in *. specialize (IH _ _ _ I1 ND).
  destruct (import_from _ l) as [[V' P'] Q']. destruct IH as [I' G'].
  { intros b w Ib. destruct (F b w (or_intror Ib)) as [Fb Wb]. split; [|exact Wb]. rewrite aget_aset.
    destruct (beqb a b) eqn:B; [|exact Fb]. apply beqb_eq in B. subst b. elim NI. exact (in_map fst _ _ Ib). }
  split; [exact I'|]. intros b. rewrite G', aget_aset. cbn [find fst snd]. destruct (beqb a b) eqn:B; [|reflexivity].
  apply beqb_eq in B. subst b. destruct (find _ l) as [av|] eqn:Ef; [|reflexivity].
  apply find_some in Ef. destruct Ef as [Iav Eq]. apply beqb_eq in Eq. elim NI. rewrite <- Eq. apply in_map, Iav.
Qed.

Lemma inv3_empty : inv3 ([], [], []).
Proof.
  repeat split; try exact I; try (intros; discriminate).
Qed.

Theorem import_establishes_the_invariants l : NoDup (map fst l) -> (forall a v, In (a, v) l -> wf_bytes a) ->
  let '(V', P', Q') := import l in
  isound V' P' /\ icomp V' P' /\ qc V' Q' /\ qs V' Q' /\
  forall a, aget V' a = match find (fun av => beqb (fst av) a) l with Some av => Some (snd av) | None => None end.
Proof.
  intros ND W. pose proof (import_from_spec l [] [] [] inv3_empty ND (fun a v I => conj eq_refl (W a v I))) as H.
  unfold import. destruct (import_from _ l) as [[V' P'] Q']. destruct H as [(S & C & QC & QS) G]. auto 10.
Qed.

Lemma find_aget {V} (m : amap V) a : asorted m ->
  match find (fun av => beqb (fst av) a) m with Some av => Some (snd av) | None => None end = aget m a.
Proof.
  intros S. rewrite aget_assoc by exact S. clear S.
  induction m as [|[k v] m IH]; [reflexivity|]. cbn [find assoc fst snd]. destruct (beqb k a); [reflexivity|exact IH].
Qed.
Lemma aget_in {V} (m : amap V) k v : aget m k = Some v -> In (k, v) m.
Proof. apply KVProofs.aget_in. Qed.
Lemma aget_export V a : asorted V -> aget (export V) a = live (aget V a).
Proof.
  intros S. rewrite aget_assoc by (apply filter_sorted; exact S).
  unfold export. rewrite (assoc_filter_val (fun v => negb (v_status v =? 0)%N)), <- aget_assoc by exact S.
  unfold live. destruct (aget V a) as [v|]; [|reflexivity]. destruct (v_status v =? 0)%N; reflexivity.
Qed.

(* a restart from the exported records gives back the records, the index and the queue membership *)
Theorem export_import_roundtrip s : idx_sound s -> idx_complete s -> queue_ok s -> queue_sound s ->
  let '(V', P', Q') := import (export (vals s)) in
  V' = export (vals s) /\ same_live (vals s) V' /\ P' = powidx s /\ (forall k a, queued Q' k a <-> queued (unstq s) k a).
Proof.
  intros S C QC QS. assert (SV : asorted (vals s)) by apply S.
  assert (SE : asorted (export (vals s))) by (apply filter_sorted; auto).
  pose proof (import_establishes_the_invariants (export (vals s)) (sorted_keys_nodup _ SE)) as H.
  assert (W : forall a v, In (a, v) (export (vals s)) -> wf_bytes a).
  { intros a v I. apply filter_In in I. destruct I as [I _]. destruct C as (_ & _ & W & _). apply (W a v). apply in_aget; auto. }
  specialize (H W). destruct (import (export (vals s))) as [[V' P'] Q']. destruct H as (S' & C' & QC' & QS' & G).
  assert (EV : V' = export (vals s)).
  { apply amap_ext; [apply S'|exact SE|]. intros a. rewrite G. apply find_aget; auto. }
  assert (L : same_live (vals s) V').
  { intros a. rewrite EV, aget_export by auto. unfold live. destruct (aget (vals s) a) as [v|]; [|reflexivity].
    destruct (v_status v =? 0)%N eqn:B; [reflexivity|]. rewrite B. reflexivity. }
  split; [exact EV|]. split; [exact L|]. split.
  - symmetry. eapply index_is_a_function_of_the_records; eauto.
  - intros k a. symmetry. eapply queue_is_a_function_of_the_records; eauto.
Qed.
