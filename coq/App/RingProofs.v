(* C08: the missed-block ring buffer of handleValidatorSignature IS a sliding window.
   Pure statement about the bit-array / counter / offset update exactly as coded (flip the bit at
   offset mod W and move the counter by one only when the bit changes): after ANY sequence of
   votes, for ANY window size W >= 1, the counter equals the number of misses among the most
   recent min(n, W) votes, and the array holds exactly those votes. *)
From Coq Require Import List ZArith NArith Bool Lia.
Import ListNotations.
Local Open Scope Z_scope.

Definition ring := ((nat -> bool) * Z * nat)%type.             (* bits, missed counter, index offset *)
Definition upd (b : nat -> bool) (i : nat) (x : bool) : nat -> bool := fun j => if Nat.eqb j i then x else b j.
(* [m] = the validator MISSED this block *)
Definition ring_step (W : nat) (r : ring) (m : bool) : ring :=
  let '(b, c, o) := r in
  let i := (o mod W)%nat in
  let prev := b i in
  if negb prev && m then (upd b i true, c + 1, S o)
  else if prev && negb m then (upd b i false, c - 1, S o)
  else (b, c, S o).
Definition ring0 : ring := (fun _ => false, 0, O).

Definition b2z (x : bool) : Z := if x then 1 else 0.
Fixpoint cnt (l : list bool) : Z := match l with [] => 0 | x :: r => b2z x + cnt r end.

(* [hist]: the votes so far, NEWEST first *)
Definition ring_inv (W : nat) (r : ring) (hist : list bool) : Prop :=
  let '(b, c, o) := r in
  o = length hist /\ c = cnt (firstn W hist) /\
  (forall k, (k < o)%nat -> (k < W)%nat -> b ((o - 1 - k) mod W)%nat = nth k hist false) /\
  (forall i, (o <= i)%nat -> (i < W)%nat -> b i = false).

Lemma cnt_firstn_S n : forall l, cnt (firstn (S n) l) = cnt (firstn n l) + b2z (nth n l false).
Proof.
  induction n as [|n IH]; intros [|x l]; try (cbn; lia).
  change (firstn (S (S n)) (x :: l)) with (x :: firstn (S n) l). change (firstn (S n) (x :: l)) with (x :: firstn n l).
  cbn [cnt nth]. rewrite IH. lia.
Qed.
Lemma mod_shift_neq W o k : (0 < W)%nat -> (k + 1 < W)%nat -> (k < o)%nat -> ((o - 1 - k) mod W <> o mod W)%nat.
Proof.
  intros HW Hk Ho E. set (x := (o - 1 - k)%nat) in *.
  pose proof (Nat.div_mod x W ltac:(lia)) as Dx. pose proof (Nat.div_mod o W ltac:(lia)) as Do.
  rewrite E in Dx. assert (o = x + (k + 1))%nat by (unfold x; lia).
  destruct (le_lt_dec (o / W) (x / W)) as [L|L]; nia.
Qed.
Lemma mod_last W o : (0 < W)%nat -> (W <= o)%nat -> ((o - 1 - (W - 1)) mod W = o mod W)%nat.
Proof.
  intros HW Ho. replace (o - 1 - (W - 1))%nat with (o - W)%nat by lia.
  replace o with ((o - W) + 1 * W)%nat at 2 by lia. rewrite Nat.mod_add by lia. reflexivity.
Qed.

Theorem ring_step_inv W r hist m : (0 < W)%nat -> ring_inv W r hist -> ring_inv W (ring_step W r m) (m :: hist).
Proof.
  intros HW. destruct r as [[b c] o]. intros (Eo & Ec & Hb & Hz).
  (* the bit about to be overwritten is the vote that leaves the window (or nothing) *)
  assert (Prev : b (o mod W)%nat = nth (W - 1) hist false).
  { destruct (le_lt_dec W o) as [L|L].
    - rewrite <- (mod_last W o HW L). apply Hb; lia.
    - rewrite Nat.mod_small by lia. rewrite (Hz o) by lia. rewrite nth_overflow; auto. lia. }
  assert (Cn : cnt (firstn W (m :: hist)) = c - b2z (b (o mod W)%nat) + b2z m).
  { destruct W as [|W']; [lia|]. cbn [firstn cnt]. rewrite Ec, cnt_firstn_S, Prev.
    replace (S W' - 1)%nat with W' by lia. lia. }
  (* the step writes the new vote at that position and nothing else, and moves the counter by the difference *)
  assert (Fin : forall (b' : nat -> bool) c', b' (o mod W)%nat = m -> (forall j, j <> (o mod W)%nat -> b' j = b j) ->
            c' = c - b2z (b (o mod W)%nat) + b2z m -> ring_inv W (b', c', S o) (m :: hist)).
  { intros b' c' Hi Hj Hc. split; [cbn; lia|]. split; [rewrite Cn; exact Hc|]. split.
    - intros [|k] Hk1 Hk2; cbn [nth].
      + replace (S o - 1 - 0)%nat with o by lia. exact Hi.
      + replace (S o - 1 - S k)%nat with (o - 1 - k)%nat by lia.
        rewrite Hj; [apply Hb; lia|]. apply mod_shift_neq; lia.
    - intros i Hi1 Hi2. rewrite Hj; [apply Hz; lia|]. rewrite Nat.mod_small by lia. lia. }
  assert (U : forall x, upd b (o mod W)%nat x (o mod W)%nat = x /\ forall j, j <> (o mod W)%nat -> upd b (o mod W)%nat x j = b j).
  { intros x. unfold upd. rewrite Nat.eqb_refl. split; [reflexivity|]. intros j Hj. destruct (Nat.eqb_spec j (o mod W)%nat); [contradiction|reflexivity]. }
  unfold ring_step. cbv zeta. destruct (b (o mod W)%nat) eqn:Pb; destruct m; cbn [negb andb]; apply Fin; try apply U; auto; cbn; lia.
Qed.
Lemma ring0_inv W : ring_inv W ring0 [].
Proof. split; [reflexivity|]. split; [destruct W; reflexivity|]. split; [intros k H; inversion H|auto]. Qed.

(* votes in chronological order *)
Theorem ring_is_sliding_window W votes : (0 < W)%nat ->
  ring_inv W (fold_left (ring_step W) votes ring0) (rev votes).
Proof.
  intros HW. assert (G : forall vs r hist, ring_inv W r hist -> ring_inv W (fold_left (ring_step W) vs r) (rev vs ++ hist)).
  { induction vs as [|m vs IH]; intros r hist H; simpl; auto.
    rewrite <- app_assoc. simpl. apply IH. apply ring_step_inv; auto. }
  specialize (G votes ring0 [] (ring0_inv W)). rewrite app_nil_r in G. exact G.
Qed.
(* C08: the counter = misses among the most recent min(n, W) votes *)
Corollary ring_counter_is_window_misses W votes : (0 < W)%nat ->
  snd (fst (fold_left (ring_step W) votes ring0)) = cnt (firstn W (rev votes)).
Proof.
  intros HW. pose proof (ring_is_sliding_window W votes HW) as H.
  destruct (fold_left (ring_step W) votes ring0) as [[b c] o]. destruct H as (_ & Ec & _). exact Ec.
Qed.
