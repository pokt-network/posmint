(* C06: in every reachable state of every history, every UNSTAKING validator is queued in the
   unstaking queue under the key of its completion time (so it cannot be forgotten: findings
   F16 and F22 were violations of exactly this), and EndBlock leaves no unstaking validator whose
   completion time has been reached (released at the first block at or after it). In the other
   direction the queue is sound (every queued address is an unstaking validator with the slot's
   completion time), hence EndBlock releases nobody early. *)
From Coq Require Import List ZArith NArith Bool Lia.
From PM Require Import Base.Bytes Store.KV Store.KVProofs App.Model App.Walk App.KeyProofs App.IndexProofs.
Import ListNotations.
Local Open Scope Z_scope.

Definition qkey (v : validator) : bytes := time_key (v_unstime v).
Definition queued (Q : amap (list bytes)) (k a : bytes) : Prop := exists l, aget Q k = Some l /\ In a l.
(* completeness for every validator, or for every validator but [x] *)
Definition qcx (x : option bytes) (V : amap validator) (Q : amap (list bytes)) : Prop :=
  asorted V /\ asorted Q /\
  forall b v, Some b <> x -> aget V b = Some v -> v_status v = 1%N -> queued Q (qkey v) b.
Definition qc := qcx None.
Definition queue_ok (s : state) : Prop := qc (vals s) (unstq s).

Definition slot (Q : amap (list bytes)) (k : bytes) : list bytes := match aget Q k with Some l => l | None => [] end.
Definition enqueue (Q : amap (list bytes)) (k a : bytes) := aset Q k (slot Q k ++ [a]).
Definition dequeue (Q : amap (list bytes)) (k a : bytes) :=
  match filter (fun x => negb (beqb x a)) (slot Q k) with
  | [] => adel Q k
  | q' => aset Q k q'
  end.

Lemma queued_enqueue Q k a k' b : queued Q k' b -> queued (enqueue Q k a) k' b.
Proof.
  intros (l & E & I). unfold queued, enqueue. rewrite aget_aset. destruct (beqb k k') eqn:B.
  - apply beqb_eq in B; subst k'. unfold slot. rewrite E. exists (l ++ [a]). split; auto. apply in_or_app; auto.
  - exists l; auto.
Qed.
Lemma queued_enqueue_self Q k a : queued (enqueue Q k a) k a.
Proof.
  unfold queued, enqueue. rewrite aget_aset. rewrite beqb_refl.
  eexists; split; [reflexivity|]. apply in_or_app; right; left; auto.
Qed.
Lemma enqueue_sorted Q k a : asorted Q -> asorted (enqueue Q k a).
Proof. intros S. apply aset_sorted; auto. Qed.
Lemma dequeue_sorted Q k a : asorted Q -> asorted (dequeue Q k a).
Proof. intros S. unfold dequeue. destruct (filter _ _); [apply adel_sorted|apply aset_sorted]; auto. Qed.
Lemma queued_dequeue Q k a k' b : asorted Q -> b <> a -> queued Q k' b -> queued (dequeue Q k a) k' b.
Proof.
  intros S N (l & E & I). unfold queued, dequeue.
  destruct (beqb k k') eqn:B.
  - apply beqb_eq in B; subst k'. unfold slot. rewrite E.
    assert (Ib : In b (filter (fun x => negb (beqb x a)) l)).
    { apply filter_In. split; auto. destruct (beqb b a) eqn:Bb; auto. apply beqb_eq in Bb. contradiction. }
    destruct (filter (fun x => negb (beqb x a)) l) as [|y q'] eqn:F; [destruct Ib|].
    rewrite aget_aset. rewrite beqb_refl. eexists; split; [reflexivity|exact Ib].
  - destruct (filter _ _); [rewrite aget_adel by auto|rewrite aget_aset]; rewrite B; exists l; auto.
Qed.
Lemma dequeue_incl Q k a k' l' : asorted Q -> aget (dequeue Q k a) k' = Some l' -> exists l, aget Q k' = Some l /\ incl l' l.
Proof.
  intros S. unfold dequeue. destruct (filter (fun x => negb (beqb x a)) (slot Q k)) as [|y q'] eqn:F.
  - rewrite aget_adel by auto. destruct (beqb k k'); [discriminate|]. intros E. exists l'; split; auto. apply incl_refl.
  - rewrite aget_aset. destruct (beqb k k') eqn:B.
    + apply beqb_eq in B; subst k'. intros [= <-]. unfold slot in F. destruct (aget Q k) as [l|] eqn:E; [|discriminate].
      exists l; split; auto. rewrite <- F. intros x Hx. apply filter_In in Hx. tauto.
    + intros E. exists l'; split; auto. apply incl_refl.
Qed.

Lemma qcx_weaken x V Q : qc V Q -> qcx x V Q.
Proof. intros (SV & SQ & H). split; auto. split; auto. intros b v _. apply H. discriminate. Qed.
Lemma qc_enqueue x V Q k a : qcx x V Q -> qcx x V (enqueue Q k a).
Proof.
  intros (SV & SQ & H). split; auto. split; [apply enqueue_sorted; auto|].
  intros b v N E St. apply queued_enqueue; auto.
Qed.
Lemma qcx_dequeue V Q k a : qcx (Some a) V Q -> qcx (Some a) V (dequeue Q k a).
Proof.
  intros (SV & SQ & H). split; auto. split; [apply dequeue_sorted; auto|].
  intros b v N E St. apply queued_dequeue; auto. congruence.
Qed.
Lemma qc_dequeue V Q k a : qcx None V Q -> qcx (Some a) V (dequeue Q k a).
Proof. intros H. apply qcx_dequeue, qcx_weaken, H. Qed.
Lemma qcx_close V Q a : qcx (Some a) V Q -> (forall v, aget V a = Some v -> v_status v = 1%N -> queued Q (qkey v) a) -> qc V Q.
Proof.
  intros (SV & SQ & H) Ha. split; auto. split; auto. intros b v _ E St.
  destruct (beqb a b) eqn:B; [apply beqb_eq in B; subst b; auto|]. apply beqb_false_neq in B. apply H; auto. congruence.
Qed.
Lemma qcx_put V Q a v1 : qcx (Some a) V Q -> qcx (Some a) (aset V a v1) Q.
Proof.
  intros (SV & SQ & H). split; [apply aset_sorted; auto|]. split; auto.
  intros b v N. rewrite aget_aset. destruct (beqb a b) eqn:B; [apply beqb_eq in B; congruence|]. apply H; auto.
Qed.
(* writing a's record: fine if a is not unstaking afterwards, or is queued where the new record says *)
Lemma qc_put V Q a v1 : qcx (Some a) V Q -> (v_status v1 = 1%N -> queued Q (qkey v1) a) -> qc (aset V a v1) Q.
Proof.
  intros H Ha. apply (qcx_close _ _ a); [apply qcx_put; exact H|]. intros v. rewrite aget_aset_same. intros [= <-].
  exact Ha.
Qed.
Lemma qc_delval x V Q a : qcx x V Q -> qcx x (adel V a) Q.
Proof.
  intros (SV & SQ & H). split; [apply adel_sorted; auto|]. split; auto.
  intros b v N. rewrite aget_adel by auto. destruct (beqb a b); [discriminate|]. apply H; auto.
Qed.
Lemma qc_delval_self V Q a : qcx (Some a) V Q -> qc (adel V a) Q.
Proof.
  intros H. apply (qcx_close _ _ a); [apply qc_delval; exact H|]. intros v. rewrite aget_adel, beqb_refl by apply H.
  discriminate.
Qed.
Lemma qframe x s s' : vals s' = vals s -> unstq s' = unstq s -> qcx x (vals s) (unstq s) -> qcx x (vals s') (unstq s').
Proof. intros -> ->. auto. Qed.

Definition qs (V : amap validator) (Q : amap (list bytes)) : Prop :=
  asorted V /\ asorted Q /\
  forall k l a, aget Q k = Some l -> In a l -> exists v, aget V a = Some v /\ v_status v = 1%N /\ qkey v = k.
Definition queue_sound (s : state) : Prop := qs (vals s) (unstq s).
(* ... except possibly for entries naming [x] *)
Definition qsx (x : bytes) (V : amap validator) (Q : amap (list bytes)) : Prop :=
  asorted V /\ asorted Q /\
  forall k l a, aget Q k = Some l -> In a l -> a <> x -> exists v, aget V a = Some v /\ v_status v = 1%N /\ qkey v = k.
Definition absent (Q : amap (list bytes)) (x : bytes) : Prop := forall k l, aget Q k = Some l -> ~ In x l.

Lemma qs_weaken x V Q : qs V Q -> qsx x V Q.
Proof. intros (SV & SQ & H). split; auto. split; auto. intros k l a E I _. eapply H; eauto. Qed.
Lemma qsx_close x V Q : qsx x V Q -> absent Q x -> qs V Q.
Proof.
  intros (SV & SQ & H) A. split; auto. split; auto. intros k l a E I.
  destruct (list_eq_dec N.eq_dec a x) as [->|N]; [exfalso; eapply A; eauto|]. eapply H; eauto.
Qed.
(* removing x from the slot its record names removes it everywhere (soundness: it is in no other slot) *)
Lemma qs_dequeue V Q x v : qs V Q -> aget V x = Some v -> qsx x V (dequeue Q (qkey v) x) /\ absent (dequeue Q (qkey v) x) x.
Proof.
  intros (SV & SQ & H) Ex. split.
  - split; auto. split; [apply dequeue_sorted; auto|]. intros k l a E I N.
    destruct (dequeue_incl _ _ _ _ _ SQ E) as (l0 & E0 & I0). eapply H; eauto.
  - intros k l E I. unfold dequeue in E.
    destruct (filter (fun y => negb (beqb y x)) (slot Q (qkey v))) as [|y q'] eqn:F.
    + rewrite aget_adel in E by auto. destruct (beqb (qkey v) k) eqn:B; [discriminate|].
      destruct (H k l x E I) as (v' & Ev' & _ & Kv'). rewrite Ex in Ev'. injection Ev' as <-.
      apply beqb_false_neq in B. contradiction.
    + rewrite aget_aset in E. destruct (beqb (qkey v) k) eqn:B.
      * injection E as <-. rewrite <- F in I. apply filter_In in I. destruct I as [_ I]. rewrite beqb_refl in I. discriminate.
      * destruct (H k l x E I) as (v' & Ev' & _ & Kv'). rewrite Ex in Ev'. injection Ev' as <-.
        apply beqb_false_neq in B. contradiction.
Qed.
Lemma qsx_put x V Q v1 : qsx x V Q -> qsx x (aset V x v1) Q.
Proof.
  intros (SV & SQ & H). split; [apply aset_sorted; auto|]. split; auto. intros k l a E I N.
  destruct (H k l a E I N) as (v & Ev & R). exists v. split; auto. rewrite aget_aset.
  destruct (beqb x a) eqn:B; auto. apply beqb_eq in B. congruence.
Qed.
Lemma qsx_delval x V Q : qsx x V Q -> qsx x (adel V x) Q.
Proof.
  intros (SV & SQ & H). split; [apply adel_sorted; auto|]. split; auto. intros k l a E I N.
  destruct (H k l a E I N) as (v & Ev & R). exists v. split; auto. rewrite aget_adel by auto.
  destruct (beqb x a) eqn:B; auto. apply beqb_eq in B. congruence.
Qed.
Lemma qs_put_same V Q x v v1 : qs V Q -> aget V x = Some v -> v_status v1 = v_status v -> v_unstime v1 = v_unstime v -> qs (aset V x v1) Q.
Proof.
  intros (SV & SQ & H) Ex St Ut. split; [apply aset_sorted; auto|]. split; auto. intros k l a E I.
  destruct (H k l a E I) as (w & Ew & Sw & Kw). rewrite aget_aset. destruct (beqb x a) eqn:B.
  - apply beqb_eq in B; subst a. rewrite Ex in Ew. injection Ew as <-. exists v1. split; auto. split; [congruence|].
    unfold qkey in *. congruence.
  - exists w; auto.
Qed.
Lemma qs_put_absent V Q x v1 : qs V Q -> absent Q x -> qs (aset V x v1) Q.
Proof. intros H A. apply (qsx_close x); auto. apply qsx_put. apply qs_weaken; auto. Qed.
Lemma absent_not_unstaking V Q x : qs V Q -> (forall v, aget V x = Some v -> v_status v <> 1%N) -> absent Q x.
Proof. intros (_ & _ & H) N k l E I. destruct (H k l x E I) as (v & Ev & St & _). apply (N v Ev St). Qed.
Lemma absent_enqueue_other Q k a x : asorted Q -> a <> x -> absent Q x -> absent (enqueue Q k a) x.
Proof.
  intros S N A k' l E I. unfold enqueue in E. rewrite aget_aset in E. destruct (beqb k k') eqn:B.
  - injection E as <-. apply in_app_or in I. destruct I as [I|[I|[]]]; [|congruence].
    unfold slot in I. destruct (aget Q k) as [l0|] eqn:E0; [eapply A; eauto|destruct I].
  - eapply A; eauto.
Qed.
Lemma qs_adel V Q k : qs V Q -> qs V (adel Q k).
Proof.
  intros (SV & SQ & H). split; auto. split; [apply adel_sorted; auto|]. intros k' l a E I.
  rewrite aget_adel in E by auto. destruct (beqb k k'); [discriminate|]. eapply H; eauto.
Qed.
Lemma qs_enqueue_new V Q a v1 k : qs V Q -> absent Q a -> v_status v1 = 1%N -> qkey v1 = k ->
  qs (aset V a v1) (enqueue Q k a).
Proof.
  intros (SV & SQ & H) A St Kk. split; [apply aset_sorted; auto|]. split; [apply enqueue_sorted; auto|].
  intros k' l b E I. unfold enqueue in E. rewrite aget_aset in E. rewrite aget_aset.
  destruct (beqb k k') eqn:B.
  - apply beqb_eq in B; subst k'. injection E as <-. apply in_app_or in I. destruct I as [I|[<-|[]]].
    + unfold slot in I. destruct (aget Q k) as [l0|] eqn:E0; [|destruct I].
      destruct (beqb a b) eqn:Bb; [apply beqb_eq in Bb; subst b; exfalso; eapply A; eauto|]. eapply H; eauto.
    + rewrite beqb_refl. exists v1; auto.
  - destruct (beqb a b) eqn:Bb; [apply beqb_eq in Bb; subst b; exfalso; eapply A; eauto|]. eapply H; eauto.
Qed.

Lemma del_unstaking_eq s a v : unstq (del_unstaking s a v) = dequeue (unstq s) (qkey v) a.
Proof.
  unfold del_unstaking, dequeue, slot, qkey. cbn [unstq set_unstq].
  destruct (filter _ _); reflexivity.
Qed.
Lemma finish_unstaking_vq s a v s' : finish_unstaking s a v = Some s' ->
  vals s' = adel (vals s) a /\ unstq s' = dequeue (unstq s) (qkey v) a.
Proof.
  intros F. destruct (finish_unstaking_inv _ _ _ _ F) as (ac & su & _ & ->). split; [reflexivity|apply del_unstaking_eq].
Qed.
Lemma update_tm_validators_q s s' ups : update_tm_validators s = Some (s', ups) ->
  vals s' = vals s /\ unstq s' = unstq s /\ btime s' = btime s.
Proof.
  apply (walk_update (fun s s' => vals s' = vals s /\ unstq s' = unstq s /\ btime s' = btime s)); auto.
  intros s1 s2 s3 (A1 & A2 & A3) (B1 & B2 & B3). repeat split; congruence.
Qed.

(* Apart from dropping a drained slot, the model changes the pair in five ways: a record is rewritten with the same
   status and completion time; a validator that is not unstaking gets a record that is not unstaking; a validator
   begins to unstake and is queued; an unstaking validator leaves the queue and gets a record that is not unstaking;
   an unstaking validator leaves the queue and its record is deleted. *)
Record moves (P : amap validator -> amap (list bytes) -> Prop) : Prop := {
  m_same : forall V Q a v v1, P V Q -> aget V a = Some v -> v_status v1 = v_status v -> v_unstime v1 = v_unstime v ->
    P (aset V a v1) Q;
  m_idle : forall V Q a v1, P V Q -> (forall v, aget V a = Some v -> v_status v <> 1%N) -> v_status v1 <> 1%N ->
    P (aset V a v1) Q;
  m_begin : forall V Q a v v1, P V Q -> aget V a = Some v -> v_status v <> 1%N -> v_status v1 = 1%N ->
    P (aset V a v1) (enqueue Q (qkey v1) a);
  m_leave : forall V Q a v v1, P V Q -> aget V a = Some v -> v_status v = 1%N -> v_status v1 <> 1%N ->
    P (aset V a v1) (dequeue Q (qkey v) a);
  m_gone : forall V Q a v, P V Q -> aget V a = Some v -> v_status v = 1%N -> P (adel V a) (dequeue Q (qkey v) a) }.

Lemma qc_moves : moves qc.
Proof.
  constructor.
  - intros V Q a v v1 H E St Ut. apply qc_put; [apply qcx_weaken; exact H|]. intros S1.
    destruct H as (_ & _ & H). unfold qkey. rewrite Ut. apply (H a v); [discriminate|exact E|congruence].
  - intros V Q a v1 H _ N. apply qc_put; [apply qcx_weaken; exact H|]. intros S1. contradiction.
  - intros V Q a v v1 H _ _ _. apply qc_put; [apply qc_enqueue, qcx_weaken, H|]. intros _. apply queued_enqueue_self.
  - intros V Q a v v1 H _ _ N. apply qc_put; [apply qc_dequeue, H|]. intros S1. contradiction.
  - intros V Q a v H _ _. apply qc_delval_self, qc_dequeue, H.
Qed.
Lemma qs_moves : moves qs.
Proof.
  constructor.
  - exact qs_put_same.
  - intros V Q a v1 H N _. apply qs_put_absent; [exact H|]. exact (absent_not_unstaking V Q a H N).
  - intros V Q a v v1 H E N St. apply qs_enqueue_new; auto. apply (absent_not_unstaking V); [exact H|].
    intros w Ew. congruence.
  - intros V Q a v v1 H E _ _. destruct (qs_dequeue V Q a v H E) as [X A]. apply (qsx_close a); [apply qsx_put; exact X|exact A].
  - intros V Q a v H E _. destruct (qs_dequeue V Q a v H E) as [X A]. apply (qsx_close a); [apply qsx_delval; exact X|exact A].
Qed.

Definition kept (P : amap validator -> amap (list bytes) -> Prop) (s s' : state) : Prop :=
  P (vals s) (unstq s) -> P (vals s') (unstq s').
Lemma kept_refl P s : kept P s s.
Proof. intros H. exact H. Qed.
Lemma kept_trans P s1 s2 s3 : kept P s1 s2 -> kept P s2 s3 -> kept P s1 s3.
Proof. intros A B H. exact (B (A H)). Qed.
Lemma set_staked_kept P s a v : kept P s (set_staked s a v).
Proof. unfold set_staked. destruct (_ || _); intros H; exact H. Qed.

Section Moves.
Variable P : amap validator -> amap (list bytes) -> Prop.
Hypothesis M : moves P.

Lemma cut_kept : cut_in (kept P).
Proof.
  intros s a v sa E _ burn s2.
  assert (K : kept P s s2).
  { intros H. apply (set_staked_kept P (put_val (del_staked s a v) a _)).
    exact (m_same P M _ _ a v (with_tokens v _) H E eq_refl eq_refl). }
  destruct (burn_staked s2 burn) eqn:E3; [|exact K]. intros H. bank_only (burn_staked_sets _ _ _ E3). exact (K H).
Qed.
Lemma force_kept : force_in (kept P).
Proof.
  intros s a v s' E F H. destruct (force_unstake_inv _ _ _ _ F) as (ac & su & ->).
  set (v1 := with_status (with_tokens v 0) 0).
  unfold kept. cbn [vals unstq put_val set_vals set_bank set_unstq]. destruct (v_status v =? 1)%N eqn:St.
  - rewrite del_unstaking_eq. apply N.eqb_eq in St. apply (m_leave P M _ _ a v v1 H E St). discriminate.
  - apply (m_idle P M _ _ a v1 H); [|discriminate]. intros w Ew C. unfold get_val in E. rewrite E in Ew. injection Ew as <-.
    rewrite C in St. discriminate.
Qed.
Lemma jail_kept : jail_in (kept P).
Proof.
  intros s a s' Ej H. destruct (jail_inv _ _ _ Ej) as (v & E & _ & ->).
  exact (m_same P M _ _ a v (with_jailed v true) H E eq_refl eq_refl).
Qed.
Lemma unjail_kept s a s' : unjail s a = Some s' -> kept P s s'.
Proof.
  unfold unjail. destruct (get_val s a) as [v|] eqn:E; [|discriminate].
  destruct (v_jailed v); [|discriminate]. intros [= <-] H. apply (set_staked_kept P (put_val s a _)).
  exact (m_same P M _ _ a v (with_jailed v false) H E eq_refl eq_refl).
Qed.
Lemma finish_kept s a v s' : get_val s a = Some v -> v_status v = 1%N -> finish_unstaking s a v = Some s' -> kept P s s'.
Proof. intros E St F H. destruct (finish_unstaking_vq _ _ _ _ F) as (-> & ->). exact (m_gone P M _ _ a v H E St). Qed.

(* stake: only an unstaked (or new) validator *)
Lemma stake_kept s pk a amt : kept P s (hres_state (handle s (MStake pk a amt))).
Proof.
  intros H. destruct (stake_inv s pk a amt) as [->|(v0 & s1 & G & St0 & _ & _ & K)]; [exact H|].
  assert (H1 : P (vals s1) (unstq s1) /\ forall v, aget (vals s1) a = Some v -> v_status v <> 1%N).
  { unfold get_val in G. destruct G as [[E ->]|(E & _ & ->)].
    - split; [exact H|]. intros w Ew. replace w with v0 by congruence. rewrite St0. discriminate.
    - split.
      + apply (m_idle P M _ _ a _ H); [intros w Ew; congruence|rewrite St0; discriminate].
      + cbn [vals set_misc put_val set_vals]. intros w. rewrite aget_aset_same. intros [= <-]. rewrite St0. discriminate. }
  destruct K as [[_ ->]|(s2 & E & K)]; [exact (proj1 H1)|]. bank_only (bank_send_sets _ _ _ _ _ E). cbv zeta in K.
  set (v1 := with_status (with_tokens v0 (v_tokens v0 + amt)) 2) in K.
  assert (H3 : kept P s1 (set_staked (put_val (set_bank s1 ac su) a v1) a v1)).
  { intros _. apply (set_staked_kept P (put_val (set_bank s1 ac su) a v1)).
    apply (m_idle P M _ _ a v1 (proj1 H1) (proj2 H1)). discriminate. }
  destruct K as [[-> _]|[-> _]]; exact (H3 (proj1 H1)).
Qed.
(* begin unstake: record status 1 with completion time t, and enqueue under t *)
Lemma unstake_kept s a : kept P s (hres_state (handle s (MUnstake a))).
Proof.
  intros H. cbn [handle]. destruct (get_val s a) as [v|] eqn:E; [|exact H].
  destruct (v_status v =? 2)%N eqn:St; cbn [negb]; [|exact H]. destruct (_ <? _); [exact H|]. apply N.eqb_eq in St.
  refine (m_begin P M _ _ a v (with_unstime (with_status v 1) (btime s + p_unstaking_time (pp s))) H E _ eq_refl).
  rewrite St. discriminate.
Qed.
Lemma unjail_msg_kept s a : kept P s (hres_state (handle s (MUnjail a))).
Proof.
  intros H. destruct (unjail_inv s a) as [->|(v & si & _ & _ & _ & _ & _ & _ & E & ->)]; [exact H|].
  exact (unjail_kept _ _ _ E H).
Qed.

(* a predicate on the pair that the five moves keep is kept by every step of the model, if the release of the mature
   validators (where slots are dropped) keeps it as well *)
Theorem moves_closed : (forall s s', unstake_mature s = Some s' -> kept P s s') -> closed (fun _ => True) (kept P).
Proof.
  intros Hm. pose proof (kept_refl P) as R. pose proof (kept_trans P) as T.
  destruct (bank_moves_in (kept P) (fun s ac su H => H)) as (Sd & Mi & Bu).
  assert (Sg : sign_in (kept P)) by (intros s si mi H; exact H).
  assert (Pa : forall s k v raw, kept P s (apply_param s k v raw))
    by (intros s k v raw H; unfold apply_param; destruct v; exact H).
  pose proof (walk_slash _ R T cut_kept force_kept) as S.
  constructor; auto; try (unfold kept; intros; assumption).
  - (* c_reward *) apply (walk_reward _ R T Sd).
  - (* c_award *) intros s a amt _. apply (walk_mint_award _ R T Sd Mi).
  - (* c_vote *) apply (walk_vote _ R T S jail_kept Sg).
  - (* c_evidence *) apply (walk_evidence _ R T S jail_kept force_kept Sg).
  - (* c_update *) apply (walk_update _ R T). intros s p t H. exact H.
  - (* c_ante *) intros t _ s s'. apply (walk_ante _ R T Sd).
  - (* c_handle *) intros t _ s. destruct (t_msg t) eqn:E; [apply stake_kept|apply unstake_kept|apply unjail_msg_kept|..];
      (apply (walk_handle _ R T Sd Bu Pa); congruence).
Qed.
End Moves.

(* queue lists only shrink, validators only disappear, while the queue is being drained *)
Definition shrinks (Q0 Q : amap (list bytes)) : Prop :=
  forall k l', aget Q k = Some l' -> exists l, aget Q0 k = Some l /\ incl l' l.
Lemma shrinks_refl Q : shrinks Q Q.
Proof. intros k l E. exists l; split; auto. apply incl_refl. Qed.
Lemma shrinks_trans Q0 Q1 Q2 : shrinks Q0 Q1 -> shrinks Q1 Q2 -> shrinks Q0 Q2.
Proof.
  intros A B k l2 E2. destruct (B k l2 E2) as (l1 & E1 & I1). destruct (A k l1 E1) as (l0 & E0 & I0).
  exists l0; split; auto. eapply incl_tran; eauto.
Qed.
Definition vanish (s s' : state) : Prop := forall b v, get_val s' b = Some v -> get_val s b = Some v.
Definition drains (s s' : state) : Prop := asorted (vals s) /\ asorted (unstq s) ->
  (asorted (vals s') /\ asorted (unstq s')) /\ shrinks (unstq s) (unstq s') /\ vanish s s'.

Lemma drains_refl s : drains s s.
Proof. intros S. split; [exact S|]. split; [apply shrinks_refl|]. intros b v E. exact E. Qed.
Lemma drains_trans s1 s2 s3 : drains s1 s2 -> drains s2 s3 -> drains s1 s3.
Proof.
  intros A B S. destruct (A S) as (S2 & Sh2 & V2). destruct (B S2) as (S3 & Sh3 & V3).
  split; [exact S3|]. split; [eapply shrinks_trans; eauto|]. intros b v E. apply V2, V3, E.
Qed.
Lemma drop_drains s k : drains s (set_unstq s (adel (unstq s) k)).
Proof.
  intros (SV & SQ). cbn [vals unstq set_unstq]. split; [split; [|apply adel_sorted]; auto|]. split; [|intros b v E; exact E].
  intros k' l'. rewrite aget_adel by auto. destruct (beqb k k'); [discriminate|]. intros E. exists l'. split; [exact E|apply incl_refl].
Qed.
Lemma unstake_one_drains s a s' : unstake_one s a = Some s' -> drains s s'.
Proof.
  unfold unstake_one. destruct (get_val s a) as [v|]; [|intros [= <-]; apply drains_refl].
  destruct (negb _); [intros [= <-]; apply drains_refl|]. intros F (SV & SQ).
  destruct (finish_unstaking_vq _ _ _ _ F) as (EV & EQ). unfold vanish, get_val. rewrite EV, EQ.
  split; [split; [apply adel_sorted|apply dequeue_sorted]; auto|]. split.
  - intros k l'. apply dequeue_incl, SQ.
  - intros b w. rewrite aget_adel by auto. destruct (beqb a b); [discriminate|auto].
Qed.
Lemma unstake_list_drains l s s' : fold_opt unstake_one l s = Some s' -> drains s s'.
Proof. apply (walk_fold_opt drains drains_refl drains_trans), unstake_one_drains. Qed.

Lemma qc_sorted s : queue_ok s -> asorted (vals s) /\ asorted (unstq s).
Proof. intros (SV & SQ & _). auto. Qed.
Lemma unstake_one_q s a s' : unstake_one s a = Some s' -> queue_ok s -> queue_ok s'.
Proof.
  unfold unstake_one. destruct (get_val s a) as [v|] eqn:E; [|intros [= <-] H; exact H].
  destruct (v_status v =? 1)%N eqn:St; cbn [negb]; [|intros [= <-] H; exact H]. apply N.eqb_eq in St.
  exact (finish_kept qc qc_moves s a v s' E St).
Qed.
(* whoever unstake_one has seen is not unstaking any more, and stays so while records only disappear *)
Lemma unstaked l : forall s s', asorted (vals s) /\ asorted (unstq s) -> fold_opt unstake_one l s = Some s' ->
  forall a v, In a l -> get_val s' a = Some v -> v_status v <> 1%N.
Proof.
  induction l as [|x r IH]; simpl; intros s s' S; [intros _ a v []|].
  destruct (unstake_one s x) as [s1|] eqn:E1; [|discriminate]. intros E2 a v Ia Ea.
  destruct (unstake_one_drains _ _ _ E1 S) as (S1 & _). destruct Ia as [<-|Ia]; [|exact (IH s1 s' S1 E2 a v Ia Ea)].
  destruct (unstake_list_drains _ _ _ E2 S1) as (_ & _ & V2). apply V2 in Ea. clear E2 V2.
  unfold unstake_one in E1. destruct (get_val s x) as [w|] eqn:E; [|injection E1 as <-; congruence].
  destruct (v_status w =? 1)%N eqn:St; cbn [negb] in E1.
  - destruct (finish_unstaking_vq _ _ _ _ E1) as (EV & _). unfold get_val in Ea. rewrite EV, aget_adel in Ea by apply S.
    rewrite beqb_refl in Ea. discriminate.
  - injection E1 as <-. rewrite E in Ea. injection Ea as <-. intros C. rewrite C in St. discriminate.
Qed.

(* one mature slot: drain its (snapshot) list, then drop the slot. Q0 is the queue as unstake_mature read it; the
   queue of s has only shrunk since. Dropping slot k loses nobody: a validator still unstaking in s1 and queued
   under k would be in a sublist of l, and everybody in l has been through unstake_one ([unstaked]). *)
Lemma drain_slot_q Q0 s k l s1 : queue_ok s -> shrinks Q0 (unstq s) -> aget Q0 k = Some l ->
  fold_opt unstake_one l s = Some s1 -> queue_ok (set_unstq s1 (adel (unstq s1) k)).
Proof.
  intros H Sh E0 Ef. pose proof (qc_sorted s H) as S. destruct (unstake_list_drains _ _ _ Ef S) as (_ & B & _).
  assert (A : queue_ok s1).
  { revert Ef H. apply (walk_fold_opt (fun s s' => queue_ok s -> queue_ok s')); auto. exact unstake_one_q. }
  destruct A as (SV & SQ & HA). split; [exact SV|]. split; [apply adel_sorted; exact SQ|]. cbn [vals unstq set_unstq].
  intros b v _ Eb St. destruct (HA b v ltac:(discriminate) Eb St) as (lc & Ec & Ic). unfold queued.
  rewrite aget_adel by auto. destruct (beqb k (qkey v)) eqn:Bk; [|exists lc; auto].
  (* b would be in the list just drained *)
  exfalso. apply beqb_eq in Bk. rewrite <- Bk in Ec.
  destruct (shrinks_trans _ _ _ Sh B k lc Ec) as (l0 & El0 & I0). rewrite E0 in El0. injection El0 as <-.
  exact (unstaked l s s1 S Ef b v (I0 b Ic) Eb St).
Qed.

Definition drain_step (st : state) (p : bytes * list bytes) : option state :=
  match fold_opt unstake_one (snd p) st with
  | None => None
  | Some st1 => Some (set_unstq st1 (adel (unstq st1) (fst p)))
  end.
Lemma drain_step_drains s p s' : drain_step s p = Some s' -> drains s s'.
Proof.
  unfold drain_step. destruct (fold_opt unstake_one (snd p) s) as [s1|] eqn:E; [|discriminate]. intros [= <-].
  eapply drains_trans; [exact (unstake_list_drains _ _ _ E)|apply drop_drains].
Qed.
Lemma drain_all_drains ps s s' : fold_opt drain_step ps s = Some s' -> drains s s'.
Proof. apply (walk_fold_opt drains drains_refl drains_trans), drain_step_drains. Qed.
(* all mature slots in turn, each with the list Q0 had for it: completeness is kept by drain_slot_q at each turn
   (the queue keeps shrinking from Q0), and a slot once dropped stays absent for the same reason *)
Lemma drain_all_q Q0 ps : forall s s', queue_ok s -> shrinks Q0 (unstq s) ->
  (forall p, In p ps -> aget Q0 (fst p) = Some (snd p)) -> fold_opt drain_step ps s = Some s' ->
  queue_ok s' /\ forall p, In p ps -> aget (unstq s') (fst p) = None.
Proof.
  induction ps as [|p r IH]; simpl; intros s s' H Sh A; [intros [= <-]; split; [exact H|intros p []]|].
  unfold drain_step at 1. destruct (fold_opt unstake_one (snd p) s) as [s1|] eqn:E1; [|discriminate]. intros E2.
  pose proof (drain_slot_q Q0 s (fst p) (snd p) s1 H Sh (A p (or_introl eq_refl)) E1) as H2.
  destruct (unstake_list_drains _ _ _ E1 (qc_sorted s H)) as (S1 & B1 & _). destruct (drop_drains s1 (fst p) S1) as (S2 & B2 & _).
  set (s2 := set_unstq s1 (adel (unstq s1) (fst p))) in *.
  destruct (IH s2 s' H2 (shrinks_trans _ _ _ Sh (shrinks_trans _ _ _ B1 B2)) (fun q Hq => A q (or_intror Hq)) E2) as (H' & G).
  split; [exact H'|]. intros q [<-|Hq]; [|apply G; exact Hq].
  (* the slot dropped first cannot come back: lists only shrink *)
  destruct (aget (unstq s') (fst p)) as [lq|] eqn:Eq; [|reflexivity]. exfalso.
  destruct (drain_all_drains _ _ _ E2 S2) as (_ & B3 & _).
  destruct (B3 _ _ Eq) as (l1 & El1 & _). cbn [s2 unstq set_unstq] in El1. rewrite aget_adel, beqb_refl in El1 by apply S1. discriminate.
Qed.

Theorem unstake_mature_q s s' : queue_ok s -> unstake_mature s = Some s' ->
  queue_ok s' /\ forall k, bleb k (time_key (btime s)) = true -> aget (unstq s') k = None.
Proof.
  unfold unstake_mature. intros H E. pose proof (qc_sorted s H) as S.
  set (ps := filter (fun p => bleb (fst p) (time_key (btime s))) (unstq s)) in *.
  change (fold_opt drain_step ps s = Some s') in E.
  assert (A : forall p, In p ps -> aget (unstq s) (fst p) = Some (snd p)).
  { intros [k l] Hp. apply filter_In in Hp. apply in_aget; [apply S|apply Hp]. }
  destruct (drain_all_q (unstq s) ps s s' H (shrinks_refl _) A E) as (H' & G). split; [exact H'|].
  intros k Bk. destruct (aget (unstq s') k) as [l'|] eqn:Ek; [|reflexivity].
  destruct (drain_all_drains _ _ _ E S) as (_ & B & _).
  destruct (B k l' Ek) as (l & El & _). rewrite <- Ek. apply (G (k, l)). apply filter_In. split; [apply aget_in; exact El|exact Bk].
Qed.

Theorem queue_ok_closed : closed (fun _ => True) (fun s s' => queue_ok s -> queue_ok s').
Proof. apply (moves_closed qc qc_moves). intros s s' E H. exact (proj1 (unstake_mature_q s s' H E)). Qed.

Theorem run_q ops : forall s s', queue_ok s -> run ops s = Some s' -> queue_ok s'.
Proof. intros s s' H E. exact (closed_run _ _ queue_ok_closed ops (all_ops ops) s s' E H). Qed.

Theorem end_block_q s s' ups : queue_ok s -> end_block s = Some (s', ups) ->
  queue_ok s' /\
  (* released on time: nobody whose completion time has been reached is still unstaking *)
  (forall b v, get_val s' b = Some v -> v_status v = 1%N -> bleb (qkey v) (time_key (btime s)) = false).
Proof.
  unfold end_block. intros H. destruct (update_tm_validators s) as [[s1 u]|] eqn:E; [|discriminate].
  destruct (update_tm_validators_q _ _ _ E) as (_ & _ & F3). pose proof (c_update _ _ queue_ok_closed _ _ _ E H) as H1.
  destruct (unstake_mature s1) as [s2|] eqn:E2; [|discriminate]. intros [= <- _].
  destruct (unstake_mature_q s1 s2 H1 E2) as (A & D). split; [exact A|].
  intros b v Eb St. destruct (bleb (qkey v) (time_key (btime s))) eqn:Bl; [|reflexivity].
  (* it is queued under its key, and mature slots are gone *)
  destruct A as (_ & _ & HA). destruct (HA b v ltac:(discriminate) Eb St) as (lc & Ec & _).
  rewrite (D (qkey v)) in Ec; [discriminate|rewrite F3; exact Bl].
Qed.
(* with times inside the 8-byte range of the key, "key <= key of block time" is "time <= block time" *)
Theorem released_on_time s s' ups b v : queue_ok s -> end_block s = Some (s', ups) ->
  0 <= btime s < 256 ^ 8 -> get_val s' b = Some v -> v_status v = 1%N -> 0 <= v_unstime v < 256 ^ 8 ->
  btime s < v_unstime v.
Proof.
  intros H E Rb Eb St Rv. destruct (end_block_q s s' ups H E) as [_ R]. specialize (R b v Eb St).
  unfold bleb, qkey, time_key in R. rewrite be_bytes_compare in R by (simpl; lia).
  destruct (Z.compare_spec (v_unstime v) (btime s)); try discriminate. lia.
Qed.

(* genesis validators are all staked: nothing to queue *)
Theorem init_chain_q s0 gvals dao s ups : queue_ok s0 -> init_chain s0 gvals dao = Some (s, ups) -> queue_ok s.
Proof.
  intros H E. revert H.
  apply (walk_init_chain _ (c_refl _ _ queue_ok_closed) (c_trans _ _ queue_ok_closed)) with (4 := E).
  - intros x [[a pk] tokens] Hx. apply (set_staked_kept qc (put_val x a _)).
    apply qc_put; [apply qcx_weaken; exact Hx|]. intros C. discriminate C.
  - intros x p t Hx. exact Hx.
  - intros x m amt x' Em Hx. bank_only (bank_mint_sets _ _ _ _ Em). exact Hx.
Qed.

Theorem queue_sound_closed : closed (fun _ => True) (fun s s' => queue_sound s -> queue_sound s').
Proof.
  apply (moves_closed qs qs_moves), (walk_mature _ (kept_refl qs) (kept_trans qs) (finish_kept qs qs_moves)).
  intros s k H. exact (qs_adel _ _ k H).
Qed.

Theorem run_qs ops : forall s s', queue_sound s -> run ops s = Some s' -> queue_sound s'.
Proof. intros s s' H E. exact (closed_run _ _ queue_sound_closed ops (all_ops ops) s s' E H). Qed.

Lemma genesis_validator_qs s g : queue_sound s -> aget (vals s) (g_addr g) = None -> queue_sound (genesis_validator s g).
Proof.
  destruct g as [[a pk] tokens]. unfold g_addr. cbn [fst]. intros H E.
  apply (set_staked_kept qs (put_val s a _)). apply (m_idle qs qs_moves _ _ a _ H); [|discriminate]. intros v Ev. congruence.
Qed.
Theorem init_chain_qs s0 gvals dao s ups : queue_sound s0 -> NoDup (map g_addr gvals) ->
  (forall g, In g gvals -> aget (vals s0) (g_addr g) = None) -> init_chain s0 gvals dao = Some (s, ups) -> queue_sound s.
Proof.
  intros H ND A E. destruct (init_chain_inv _ _ _ _ _ E) as (s2 & E2 & K).
  pose proof (genesis_fold_fresh queue_sound genesis_validator_qs gvals s0 H ND A) as H1.
  pose proof (c_update _ _ queue_sound_closed _ _ _ E2 H1) as H2.
  destruct K as [->|K]; [exact H2|]. bank_only (bank_mint_sets _ _ _ _ K). exact H2.
Qed.

Lemma unstake_one_other s a s' b : asorted (vals s) -> a <> b -> unstake_one s a = Some s' ->
  get_val s' b = get_val s b /\ asorted (vals s').
Proof.
  unfold unstake_one. intros S N. destruct (get_val s a) as [v|]; [|intros [= <-]; auto].
  destruct (negb _); [intros [= <-]; auto|]. intros F. destruct (finish_unstaking_vq _ _ _ _ F) as (EV & _).
  unfold get_val. rewrite EV. split; [|apply adel_sorted; exact S]. rewrite aget_adel by auto.
  destruct (beqb a b) eqn:B; [apply beqb_eq in B; contradiction|reflexivity].
Qed.
Lemma unstake_list_other l b : forall s s', asorted (vals s) -> ~ In b l -> fold_opt unstake_one l s = Some s' ->
  get_val s' b = get_val s b /\ asorted (vals s').
Proof.
  induction l as [|a r IH]; simpl; intros s s' S N; [intros [= <-]; auto|].
  destruct (unstake_one s a) as [s1|] eqn:E1; [|discriminate]. intros E2.
  destruct (unstake_one_other s a s1 b S ltac:(tauto) E1) as [G1 S1].
  destruct (IH s1 s' S1 ltac:(tauto) E2) as [G2 S2]. split; auto. congruence.
Qed.
Lemma drain_other ps b : forall s s', asorted (vals s) -> (forall p, In p ps -> ~ In b (snd p)) ->
  fold_opt drain_step ps s = Some s' -> get_val s' b = get_val s b.
Proof.
  induction ps as [|p r IH]; simpl; intros s s' S N; [intros [= <-]; auto|].
  unfold drain_step at 1. destruct (fold_opt unstake_one (snd p) s) as [s1|] eqn:E1; [|discriminate]. intros E2.
  destruct (unstake_list_other (snd p) b s s1 S (N p (or_introl eq_refl)) E1) as [G1 S1].
  rewrite (IH (set_unstq s1 (adel (unstq s1) (fst p))) s' S1 (fun q Hq => N q (or_intror Hq)) E2). exact G1.
Qed.
(* C06, never early: EndBlock does not touch an unstaking validator whose completion time is still ahead *)
Theorem not_released_early s s' ups b v : queue_sound s -> end_block s = Some (s', ups) ->
  0 <= btime s < 256 ^ 8 -> get_val s b = Some v -> v_status v = 1%N -> 0 <= v_unstime v < 256 ^ 8 ->
  btime s < v_unstime v -> get_val s' b = Some v.
Proof.
  unfold end_block. intros H E Rb Eb St Rv Lt.
  destruct (update_tm_validators s) as [[s1 u]|] eqn:E1; [|discriminate].
  destruct (update_tm_validators_q _ _ _ E1) as (F1 & F2 & F3).
  destruct (unstake_mature s1) as [s2|] eqn:E2; [|discriminate]. injection E as <- _.
  unfold unstake_mature in E2.
  set (ps := filter (fun p => bleb (fst p) (time_key (btime s1))) (unstq s1)) in *.
  change (fold_opt drain_step ps s1 = Some s2) in E2.
  destruct H as (SV & SQ & HS). rewrite <- F1 in SV, HS. rewrite <- F2 in SQ, HS.
  rewrite (drain_other ps b s1 s2 SV) ; [unfold get_val; rewrite F1; exact Eb| |exact E2].
  (* a mature slot of a sound queue lists only validators whose time has come *)
  intros [k l] Hp Hin. apply filter_In in Hp. destruct Hp as [Hq Hm]. cbn [fst snd] in *.
  destruct (HS k l b (in_aget _ _ _ SQ Hq) Hin) as (v' & Ev' & _ & Kv').
  rewrite F1 in Ev'. unfold get_val in Eb. rewrite Eb in Ev'. injection Ev' as <-.
  rewrite <- Kv', F3 in Hm. unfold bleb, qkey, time_key in Hm. rewrite be_bytes_compare in Hm by (simpl; lia).
  destruct (Z.compare_spec (v_unstime v) (btime s)); try discriminate; lia.
Qed.
