(* Byte strings as lists of N (each < 256 when well formed) with Go's bytes.Compare /
   string comparison: lexicographic, a proper prefix sorts first. At the end: the order of
   concatenations of equal-length strings and of fixed-width positional numerals. *)
From Coq Require Import List NArith ZArith Bool Lia.
Import ListNotations.
Local Open Scope N_scope.

Definition byte := N.
Definition bytes := list byte.

Fixpoint bcompare (a b : bytes) : comparison :=
  match a, b with
  | [], [] => Eq
  | [], _ :: _ => Lt
  | _ :: _, [] => Gt
  | x :: a', y :: b' => match x ?= y with Eq => bcompare a' b' | c => c end
  end.

Definition bltb (a b : bytes) : bool := match bcompare a b with Lt => true | _ => false end.
Definition bleb (a b : bytes) : bool := match bcompare a b with Gt => false | _ => true end.
Definition beqb (a b : bytes) : bool := match bcompare a b with Eq => true | _ => false end.

Fixpoint has_prefix (p k : bytes) : bool :=
  match p, k with
  | [], _ => true
  | _ :: _, [] => false
  | x :: p', y :: k' => (x =? y) && has_prefix p' k'
  end.

Definition wf_bytes (b : bytes) : Prop := Forall (fun x => x < 256) b.
Definition wf_bytesb (b : bytes) : bool := forallb (fun x => x <? 256) b.

Lemma bcompare_refl a : bcompare a a = Eq.
Proof. induction a as [|x a IH]; simpl; auto. rewrite N.compare_refl; auto. Qed.

Lemma bcompare_eq a b : bcompare a b = Eq <-> a = b.
Proof.
  split; [|intros ->; apply bcompare_refl].
  revert b; induction a as [|x a IH]; intros [|y b]; simpl; try discriminate; auto.
  destruct (x ?= y) eqn:E; try discriminate.
  apply N.compare_eq in E; subst. intros H; f_equal; auto.
Qed.

Lemma bcompare_antisym a b : bcompare b a = CompOpp (bcompare a b).
Proof.
  revert b; induction a as [|x a IH]; intros [|y b]; simpl; auto.
  rewrite (N.compare_antisym x y). destruct (x ?= y); simpl; auto.
Qed.

Lemma bcompare_lt_trans a b c : bcompare a b = Lt -> bcompare b c = Lt -> bcompare a c = Lt.
Proof.
  revert b c; induction a as [|x a IH]; intros [|y b] [|z c]; simpl; try discriminate; auto.
  destruct (x ?= y) eqn:E1; try discriminate; destruct (y ?= z) eqn:E2; try discriminate; intros H1 H2.
  - apply N.compare_eq in E1, E2; subst. rewrite N.compare_refl; eauto.
  - apply N.compare_eq in E1; subst. rewrite E2; auto.
  - apply N.compare_eq in E2; subst. rewrite E1; auto.
  - rewrite N.compare_lt_iff in E1, E2. rewrite (proj2 (N.compare_lt_iff x z) (N.lt_trans _ _ _ E1 E2)); auto.
Qed.

Lemma bcompare_gt_lt a b : bcompare a b = Gt <-> bcompare b a = Lt.
Proof. rewrite (bcompare_antisym a b). destruct (bcompare a b); simpl; split; congruence. Qed.

(* the case analysis on a comparison, with each case in the form the lemmas above take *)
Lemma bcompare_spec a b : CompareSpec (a = b) (bcompare a b = Lt) (bcompare b a = Lt) (bcompare a b).
Proof.
  destruct (bcompare a b) eqn:E; constructor; auto.
  - apply bcompare_eq; auto.
  - apply bcompare_gt_lt; auto.
Qed.

Lemma bltb_irrefl a : bltb a a = false.
Proof. unfold bltb; rewrite bcompare_refl; auto. Qed.

Lemma bltb_trans a b c : bltb a b = true -> bltb b c = true -> bltb a c = true.
Proof.
  unfold bltb; destruct (bcompare a b) eqn:E1; try discriminate;
  destruct (bcompare b c) eqn:E2; try discriminate; intros _ _.
  rewrite (bcompare_lt_trans _ _ _ E1 E2); auto.
Qed.

Lemma bltb_antisym a b : bltb a b = true -> bltb b a = false.
Proof. unfold bltb; rewrite (bcompare_antisym a b); destruct (bcompare a b); simpl; auto; discriminate. Qed.

Lemma bltb_total a b : bltb a b = true \/ a = b \/ bltb b a = true.
Proof.
  unfold bltb; rewrite (bcompare_antisym a b); destruct (bcompare a b) eqn:E; simpl; auto.
  apply bcompare_eq in E; auto.
Qed.

Lemma beqb_eq a b : beqb a b = true <-> a = b.
Proof. unfold beqb; rewrite <- bcompare_eq; destruct (bcompare a b); split; auto; discriminate. Qed.

Lemma beqb_refl k : beqb k k = true.
Proof. apply beqb_eq; auto. Qed.
Lemma beqb_neq a b : a <> b -> beqb a b = false.
Proof. intros N. destruct (beqb a b) eqn:B; auto. apply beqb_eq in B. contradiction. Qed.
Lemma beqb_false_neq a b : beqb a b = false -> a <> b.
Proof. intros H ->. rewrite beqb_refl in H. discriminate. Qed.
Lemma beqb_sym a b : beqb a b = beqb b a.
Proof. unfold beqb. rewrite (bcompare_antisym a b). destruct (bcompare a b); reflexivity. Qed.
Lemma bltb_neq a b : bltb a b = true -> beqb a b = false.
Proof. unfold bltb, beqb. destruct (bcompare a b); auto; discriminate. Qed.
Lemma bltb_neq' a b : bltb a b = true -> beqb b a = false.
Proof. intros H. destruct (beqb b a) eqn:E; auto. apply beqb_eq in E; subst. rewrite bltb_irrefl in H; discriminate. Qed.

Lemma has_prefix_app p k : has_prefix p k = true <-> exists s, k = p ++ s.
Proof.
  revert k; induction p as [|x p IH]; intros k; simpl.
  - split; eauto.
  - destruct k as [|y k]; [split; [discriminate|intros [s Hs]; discriminate]|].
    rewrite andb_true_iff, N.eqb_eq, IH. split.
    + intros [-> [s ->]]; eauto.
    + intros [s Hs]; inversion Hs; eauto.
Qed.

Local Open Scope Z_scope.
Lemma bcompare_app_eqlen p : forall q a b, length p = length q ->
  bcompare (p ++ a) (q ++ b) = match bcompare p q with Eq => bcompare a b | c => c end.
Proof.
  induction p as [|x p IH]; intros [|y q] a b L; simpl in L; try discriminate; auto.
  simpl. destruct (x ?= y)%N; auto.
Qed.
Lemma bcompare_snoc a b x y : length a = length b ->
  bcompare (a ++ [x]) (b ++ [y]) = match bcompare a b with Eq => (x ?= y)%N | c => c end.
Proof. intros L. rewrite bcompare_app_eqlen by auto. cbn. destruct (x ?= y)%N; reflexivity. Qed.

Lemma compare_div_mod B x y : 0 < B ->
  (x ?= y) = match x / B ?= y / B with Eq => x mod B ?= y mod B | c => c end.
Proof.
  intros HB. destruct (Z.compare_spec (x / B) (y / B)) as [E|L|G].
  - rewrite (Z.div_mod x B), (Z.div_mod y B), E at 1 by lia. apply Z.add_compare_mono_l.
  - apply Z.compare_lt_iff, Z.nle_gt. intros H. apply (Z.div_le_mono _ _ B) in H; lia.
  - apply Z.compare_gt_iff, Z.nle_gt. intros H. apply (Z.div_le_mono _ _ B) in H; lia.
Qed.

(* Fixed-width positional text, most significant digit first, digit [d] written as the byte [o + d]: the byte order
   of the texts is the order of the numbers.  [be_bytes] is base 256 with offset 0, the decimal digits of the time
   text are base 10 with offset 48. *)
Section Radix.
  Variables (B o : Z) (f : nat -> Z -> bytes).
  Hypothesis HB : 0 < B.
  Hypothesis Ho : 0 <= o.
  Hypothesis f0 : forall z, f 0%nat z = [].
  Hypothesis fS : forall n z, f (S n) z = f n (z / B) ++ [Z.to_N (o + z mod B)].
  Lemma radix_length n : forall z, length (f n z) = n.
  Proof.
    induction n as [|n IH]; intros z; [rewrite f0; reflexivity|].
    rewrite fS, app_length, IH. simpl. lia.
  Qed.
  Lemma radix_compare n : forall x y, 0 <= x < B ^ Z.of_nat n -> 0 <= y < B ^ Z.of_nat n ->
    bcompare (f n x) (f n y) = (x ?= y).
  Proof.
    induction n as [|n IH]; intros x y Hx Hy.
    - simpl in *. assert (x = 0) by lia. assert (y = 0) by lia. subst. rewrite f0. reflexivity.
    - rewrite Nat2Z.inj_succ, Z.pow_succ_r in Hx, Hy by lia.
      assert (Q : forall z, 0 <= z < B * B ^ Z.of_nat n -> 0 <= z / B < B ^ Z.of_nat n).
      { intros z Hz. split; [apply Z.div_pos; lia|apply Z.div_lt_upper_bound; lia]. }
      rewrite !fS, bcompare_snoc, IH, (compare_div_mod B x y) by (rewrite ?radix_length; auto).
      destruct (x / B ?= y / B); auto.
      pose proof (Z.mod_pos_bound x B HB). pose proof (Z.mod_pos_bound y B HB).
      rewrite Z2N.inj_compare by lia. apply Z.add_compare_mono_l.
  Qed.
End Radix.
