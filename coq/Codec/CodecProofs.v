(* Proofs about the byte-level codec model: uvarint / length-prefix round trip, order
   preservation and injectivity of the sortable time text, canonical JSON (sign bytes). *)
From Coq Require Import List ZArith Bool Lia Permutation.
From PM Require Import Base.Bytes Store.KV Store.KVProofs Codec.CodecModel.
Import ListNotations.
Local Open Scope Z_scope.

Lemma uvarint_dec_enc fuel : forall z i sh acc rest,
  0 <= z -> 0 <= i <= 9 -> sh = 7 * i -> Z.of_nat fuel = 10 - i -> z * 2 ^ sh < 2 ^ 64 ->
  uvarint_dec fuel (uvarint_enc fuel z ++ rest) i sh acc = Some (acc + z * 2 ^ sh, rest).
Proof.
  induction fuel as [|f IH]; intros z i sh acc rest Hz Hi Hsh Hf Hb; [lia|].
  (* the tenth byte holds bit 63 only *)
  assert (H9 : i = 9 -> z <= 1).
  { intros ->. subst sh. change (7 * 9) with 63 in Hb. change (2 ^ 64) with (2 * 2 ^ 63) in Hb. nia. }
  cbn [uvarint_enc]. destruct (Z.ltb_spec z 128) as [L|G]; cbn [app uvarint_dec].
  - assert (Hx : (Z.to_N z <? 128)%N = true) by (apply N.ltb_lt; lia). rewrite Hx.
    assert (Hc : (i =? 9) && (1 <? Z.to_N z)%N = false).
    { destruct (Z.eqb_spec i 9) as [E|]; [|reflexivity]. apply N.ltb_ge. lia. }
    rewrite Hc, Z2N.id by lia. reflexivity.
  - pose proof (Z.mod_pos_bound z 128 ltac:(lia)) as Hm. pose proof (Z.div_mod z 128 ltac:(lia)) as Hd.
    assert (Hx : (Z.to_N (z mod 128 + 128) <? 128)%N = false) by (apply N.ltb_ge; lia). rewrite Hx.
    rewrite Z2N.id by lia.
    assert (Hp : 2 ^ (sh + 7) = 128 * 2 ^ sh) by (rewrite Z.pow_add_r by lia; change (2 ^ 7) with 128; lia).
    assert (Hpos : 0 < 2 ^ sh) by (apply Z.pow_pos_nonneg; lia).
    assert (0 <= z / 128) by (apply Z.div_pos; lia).
    rewrite IH; try lia; try (rewrite Hp; nia).
    f_equal. f_equal. rewrite Hp. nia.
Qed.
Theorem uvarint_roundtrip z rest : 0 <= z < 2 ^ 64 -> uvarint_decode (uvarint z ++ rest) = Some (z, rest).
Proof.
  intros H. unfold uvarint_decode, uvarint.
  rewrite (uvarint_dec_enc 10 z 0 0 0 rest); try lia; try reflexivity; change (2 ^ 0) with 1; try lia.
  f_equal. f_equal. lia.
Qed.
Theorem frame_roundtrip bare rest : Z.of_nat (length bare) < 2 ^ 64 -> unframe (frame bare ++ rest) = Some (bare, rest).
Proof.
  intros H. unfold unframe, frame. rewrite <- app_assoc, uvarint_roundtrip by lia.
  rewrite app_length. destruct (Z.ltb_spec (Z.of_nat (length bare + length rest)) (Z.of_nat (length bare))); [lia|].
  rewrite Nat2Z.id, firstn_app, Nat.sub_diag, firstn_all, skipn_app, Nat.sub_diag, skipn_all. cbn. rewrite app_nil_r. reflexivity.
Qed.

Lemma digits_length n z : length (digits n z) = n.
Proof. apply (radix_length 10 48); reflexivity. Qed.
Lemma digits_compare n : forall x y, 0 <= x < 10 ^ Z.of_nat n -> 0 <= y < 10 ^ Z.of_nat n ->
  bcompare (digits n x) (digits n y) = (x ?= y).
Proof. apply (radix_compare 10 48); reflexivity || lia. Qed.
Lemma bcompare_sep p q c a b : length p = length q ->
  bcompare (p ++ [c] ++ a) (q ++ [c] ++ b) = lex (bcompare p q) (bcompare a b).
Proof.
  intros L. rewrite bcompare_app_eqlen by auto. unfold lex. destruct (bcompare p q); auto.
  cbn [app bcompare]. rewrite N.compare_refl. reflexivity.
Qed.
(* the byte order of the keys is the order of the broken-down UTC times *)
Theorem time_text_order a b : tfields_ok a -> tfields_ok b ->
  bcompare (time_text a) (time_text b) = tfields_compare a b.
Proof.
  intros (Ay & Am & Ad & Ah & Ai & As & An) (By & Bm & Bd & Bh & Bi & Bs & Bn).
  unfold time_text, tfields_compare.
  repeat (rewrite bcompare_sep by (rewrite !digits_length; reflexivity)).
  rewrite !digits_compare; auto.
Qed.
Lemma lex_eq c d : lex c d = Eq -> c = Eq /\ d = Eq.
Proof. destruct c; simpl; intros; try discriminate; auto. Qed.
(* ... and a key decodes back to exactly the time it was built from *)
Theorem time_text_injective a b : tfields_ok a -> tfields_ok b -> time_text a = time_text b -> a = b.
Proof.
  intros Ha Hb E. pose proof (time_text_order a b Ha Hb) as O. rewrite E, bcompare_refl in O.
  symmetry in O. unfold tfields_compare in O.
  repeat (apply lex_eq in O; destruct O as [?%Z.compare_eq_iff O]). apply Z.compare_eq_iff in O.
  destruct a, b; simpl in *; subst; reflexivity.
Qed.

Section JsonInd.
  Variable P : json -> Prop.
  Hypothesis Hn : P JNull.
  Hypothesis Hb : forall b, P (JBool b).
  Hypothesis Hs : forall s, P (JStr s).
  Hypothesis Ha : forall l, Forall P l -> P (JArr l).
  Hypothesis Ho : forall l, Forall (fun kv => P (snd kv)) l -> P (JObj l).
  Fixpoint json_ind' (j : json) : P j :=
    match j with
    | JNull => Hn
    | JBool b => Hb b
    | JStr s => Hs s
    | JArr l => Ha l ((fix go (l : list json) : Forall P l :=
                         match l with [] => Forall_nil _ | x :: r => Forall_cons x (json_ind' x) (go r) end) l)
    | JObj l => Ho l ((fix go (l : list (bytes * json)) : Forall (fun kv => P (snd kv)) l :=
                         match l with
                         | [] => Forall_nil _
                         | kv :: r => Forall_cons kv (json_ind' (snd kv)) (go r)
                         end) l)
    end.
End JsonInd.

(* the inner loop of [canon] on an object, under a name *)
Fixpoint cgo (l : list (bytes * json)) (acc : amap json) : amap json :=
  match l with [] => acc | (k, v) :: r => cgo r (aset acc k (canon v)) end.
Lemma canon_obj l : canon (JObj l) = JObj (cgo l []).
Proof. reflexivity. Qed.

(* only the key -> content map of an object matters to its canonical form *)
Fixpoint clook (l : list (bytes * json)) (k : bytes) : option json :=      (* last binding wins *)
  match l with
  | [] => None
  | (k0, v) :: r => match clook r k with Some x => Some x | None => if beqb k0 k then Some (canon v) else None end
  end.
Lemma cgo_spec l : forall acc, asorted acc ->
  asorted (cgo l acc) /\ forall k, aget (cgo l acc) k = match clook l k with Some x => Some x | None => aget acc k end.
Proof.
  induction l as [|[k0 v] r IH]; intros acc S; cbn [cgo clook]; [split; auto|].
  destruct (IH (aset acc k0 (canon v)) (proj1 (aset_sorted acc k0 (canon v) S))) as [S' G]. split; auto.
  intros k. rewrite G. destruct (clook r k); auto. rewrite aget_aset. destruct (beqb k0 k); auto.
Qed.
Theorem canon_obj_ext l1 l2 : (forall k, clook l1 k = clook l2 k) -> canon (JObj l1) = canon (JObj l2).
Proof.
  intros E. rewrite !canon_obj. f_equal.
  destruct (cgo_spec l1 [] I) as [S1 G1], (cgo_spec l2 [] I) as [S2 G2].
  apply amap_ext; auto. intros k. rewrite G1, G2, E. reflexivity.
Qed.
Lemma clook_none l k : clook l k = None <-> ~ In k (map fst l).
Proof.
  induction l as [|[k0 v] r IH]; cbn [clook map fst In]; [tauto|].
  rewrite <- (beqb_eq k0 k). destruct (clook r k), (beqb k0 k); intuition discriminate.
Qed.
Lemma clook_in l k x : clook l k = Some x -> exists v, In (k, v) l /\ x = canon v.
Proof.
  induction l as [|[k0 v0] r IH]; cbn [clook]; [discriminate|]. destruct (clook r k) as [y|].
  - intros [= <-]. destruct (IH eq_refl) as (v & Hin & E). exists v. split; [right|]; auto.
  - destruct (beqb k0 k) eqn:B; [|discriminate]. apply beqb_eq in B as ->. intros [= <-].
    exists v0. split; [left|]; auto.
Qed.
Lemma in_clook l k v : NoDup (map fst l) -> In (k, v) l -> clook l k = Some (canon v).
Proof.
  induction l as [|[k0 v0] r IH]; cbn [clook map fst]; intros ND Hin; [destruct Hin|].
  inversion ND as [|? ? NI ND']; subst. destruct Hin as [E|Hin].
  - injection E as -> ->. rewrite (proj2 (clook_none r k) NI), (proj2 (beqb_eq k k) eq_refl). reflexivity.
  - rewrite (IH ND' Hin). reflexivity.
Qed.
(* the readable corollary: the order of an object's fields does not matter *)
Theorem canon_perm l1 l2 : NoDup (map fst l1) -> Permutation l1 l2 -> canon (JObj l1) = canon (JObj l2).
Proof.
  intros ND P. apply canon_obj_ext. intros k. destruct (clook l1 k) eqn:C1; symmetry.
  - apply clook_in in C1 as (v & Hin & ->). apply in_clook.
    + eapply Permutation_NoDup; [apply Permutation_map; exact P|exact ND].
    + eapply Permutation_in; eauto.
  - apply clook_none. apply clook_none in C1. intros Hin. apply C1.
    eapply Permutation_in; [apply Permutation_sym, Permutation_map; exact P|exact Hin].
Qed.

(* The rendering is prefix-free, hence injective. An escape can be read back from the front of any string it begins: the first byte says whether it is a plain byte
   or an escape, the second which kind of escape. *)
Definition unhex (n : N) : Z := Z.of_N n - (if (n <? 58)%N then 48 else 87).
Definition unesc (s : bytes) : N :=
  match s with
  | [] => 0%N
  | c :: t =>
    if (c =? 92)%N then
      match t with
      | [] => 0%N
      | d :: u =>
        if (d =? 117)%N then match u with _ :: _ :: h :: l :: _ => Z.to_N (16 * unhex h + unhex l) | _ => 0%N end
        else if (d =? 110)%N then 10%N else if (d =? 114)%N then 13%N else if (d =? 116)%N then 9%N
        else if (d =? 98)%N then 8%N else if (d =? 102)%N then 12%N else d
      end
    else c
  end.
Lemma unhex_hexd z : 0 <= z < 16 -> unhex (hexd z) = z.
Proof.
  intros H. unfold unhex, hexd. destruct (Z.ltb_spec z 10).
  - destruct (N.ltb_spec (Z.to_N (48 + z)) 58); lia.
  - destruct (N.ltb_spec (Z.to_N (87 + z)) 58); lia.
Qed.
Lemma unesc_esc b r : unesc (esc b ++ r) = b.
Proof.
  unfold esc.
  destruct (N.eqb_spec b 34) as [->|_]; [reflexivity|].
  destruct (N.eqb_spec b 92) as [->|N92]; [reflexivity|].
  destruct (N.eqb_spec b 10) as [->|_]; [reflexivity|].
  destruct (N.eqb_spec b 13) as [->|_]; [reflexivity|].
  destruct (N.eqb_spec b 9) as [->|_]; [reflexivity|].
  destruct (N.eqb_spec b 8) as [->|_]; [reflexivity|].
  destruct (N.eqb_spec b 12) as [->|_]; [reflexivity|].
  destruct ((b <? 32) || (b =? 60) || (b =? 62) || (b =? 38))%N eqn:C.
  - (* \u00XY: the two hex digits are the quotient and the remainder by 16 *)
    assert (Hb : (b < 256)%N).
    { rewrite !orb_true_iff, N.ltb_lt, !N.eqb_eq in C. lia. }
    change (Z.to_N (16 * unhex (hexd (Z.of_N b / 16)) + unhex (hexd (Z.of_N b mod 16))) = b).
    rewrite (unhex_hexd (Z.of_N b / 16)) by (split; [apply Z.div_pos|apply Z.div_lt_upper_bound]; lia).
    rewrite (unhex_hexd (Z.of_N b mod 16)) by (apply Z.mod_pos_bound; lia).
    rewrite <- Z.div_mod by lia. apply N2Z.id.
  - apply N.eqb_neq in N92. cbn [app unesc]. rewrite N92. reflexivity.
Qed.
Lemma esc_not_quote b r t : esc b ++ r <> 34%N :: t.
Proof. intros H. pose proof (unesc_esc b r) as E. rewrite H in E. cbn in E. subst b. discriminate H. Qed.
Lemma qbody_pf s1 : forall s2 r1 r2,
  flat_map esc s1 ++ 34%N :: r1 = flat_map esc s2 ++ 34%N :: r2 -> s1 = s2 /\ r1 = r2.
Proof.
  induction s1 as [|b1 s1 IH]; intros [|b2 s2] r1 r2 H; cbn [flat_map] in H; rewrite <- ?app_assoc in H.
  - injection H as ->. auto.
  - symmetry in H. apply esc_not_quote in H. destruct H.
  - apply esc_not_quote in H. destruct H.
  - assert (b1 = b2) as ->.
    { rewrite <- (unesc_esc b1 (flat_map esc s1 ++ 34%N :: r1)), H. apply unesc_esc. }
    apply app_inv_head in H. destruct (IH s2 r1 r2 H) as [-> ->]. auto.
Qed.
Lemma quote_pf s1 s2 r1 r2 : quote s1 ++ r1 = quote s2 ++ r2 -> s1 = s2 /\ r1 = r2.
Proof.
  unfold quote. cbn [app]. intros H. injection H as H. rewrite <- !app_assoc in H. exact (qbody_pf _ _ _ _ H).
Qed.

(* Arrays and objects are both a list of items, comma-separated, up to a closing bracket: if the items are
   prefix-free and none begins with the bracket, so is the list. *)
Section Rlist.
  Context {A : Type} (f : A -> bytes) (close : N).
  Fixpoint rlist (l : list A) : bytes :=
    match l with
    | [] => [close]
    | x :: r => f x ++ match r with [] => [close] | _ :: _ => 44%N :: rlist r end
    end.
  Definition pf_at (x : A) : Prop := forall y r1 r2, f x ++ r1 = f y ++ r2 -> x = y /\ r1 = r2.
  Hypothesis Hclose : close <> 44%N.
  Hypothesis Hhead : forall x r t, f x ++ r <> close :: t.
  Lemma rlist_pf l1 : Forall pf_at l1 -> forall l2 r1 r2, rlist l1 ++ r1 = rlist l2 ++ r2 -> l1 = l2 /\ r1 = r2.
  Proof.
    induction l1 as [|x1 l1 IH]; intros P [|x2 l2] r1 r2 H; cbn [rlist] in H; rewrite <- ?app_assoc in H.
    - injection H as ->. auto.
    - symmetry in H. apply Hhead in H. destruct H.
    - apply Hhead in H. destruct H.
    - inversion P as [|? ? Px Pl]; subst. destruct (Px _ _ _ H) as [<- H']. specialize (IH Pl l2 r1 r2).
      destruct l1, l2; injection H' as H'.
      + subst. auto.
      + contradiction.
      + symmetry in H'. contradiction.
      + destruct (IH H') as [E ->]. rewrite E. auto.
  Qed.
End Rlist.

Definition field (kv : bytes * json) : bytes := quote (fst kv) ++ 58%N :: render (snd kv).
Lemma render_arr l : render (JArr l) = 91%N :: rlist render 93 l.
Proof. reflexivity. Qed.
Lemma render_obj l : render (JObj l) = 123%N :: rlist field 125 l.
Proof.
  cbn [render]. f_equal. induction l as [|[k v] r IH]; [reflexivity|].
  cbn [rlist]. rewrite <- IH. unfold field. cbn [fst snd]. rewrite <- app_assoc. reflexivity.
Qed.
Lemma render_head j r t : render j ++ r <> 93%N :: t.
Proof. destruct j as [|[|]|s|l|l]; discriminate. Qed.
Lemma field_pf kv : pf_at render (snd kv) -> pf_at field kv.
Proof.
  destruct kv as [k v]. intros P [k2 v2] r1 r2 H. unfold field in H. cbn [fst snd] in *.
  rewrite <- !app_assoc in H. destruct (quote_pf _ _ _ _ H) as [-> H'].
  injection H' as H'. destruct (P _ _ _ H') as [-> ->]. auto.
Qed.
Lemma render_pf : forall j, pf_at render j.
Proof.
  induction j as [| [|] |s|l IH|l IH] using json_ind'; intros j2 r1 r2 H; destruct j2 as [| [|] |s2|l2|l2];
    try discriminate H.
  - injection H as ->. auto.
  - injection H as ->. auto.
  - injection H as ->. auto.
  - destruct (quote_pf _ _ _ _ H) as [-> ->]. auto.
  - rewrite !render_arr in H. injection H as H.
    apply rlist_pf in H as [-> ->]; auto using render_head. discriminate.
  - rewrite !render_obj in H. injection H as H.
    apply rlist_pf in H as [-> ->]; [auto|discriminate|discriminate|].
    apply Forall_forall. intros kv Hin. apply field_pf. exact (proj1 (Forall_forall _ _) IH kv Hin).
Qed.
(* [esc] can be read back on all of N, not only on bytes: no well-formedness is needed *)
Lemma render_inj j1 j2 : render j1 = render j2 -> j1 = j2.
Proof. intros H. apply (render_pf j1 j2 [] []). rewrite !app_nil_r. exact H. Qed.
Theorem render_injective j1 j2 : json_wf j1 -> json_wf j2 -> render j1 = render j2 -> j1 = j2.
Proof. intros _ _. apply render_inj. Qed.

Lemma json_wf_arr l : json_wf (JArr l) <-> Forall json_wf l.
Proof.
  cbn [json_wf]. induction l as [|x r IH]; [split; auto|]. split.
  - intros [H1 H2]. constructor; auto. apply IH; auto.
  - intros H. inversion H; subst. split; auto. apply IH; auto.
Qed.
Definition fwf (kv : bytes * json) : Prop := wf_bytes (fst kv) /\ json_wf (snd kv).
Lemma json_wf_obj l : json_wf (JObj l) <-> Forall fwf l.
Proof.
  cbn [json_wf]. induction l as [|[k v] r IH]; [split; auto|]. split.
  - intros (H1 & H2 & H3). constructor; [split; auto|apply IH; auto].
  - intros H. inversion H as [|? ? [H1 H2] H3]; subst. split; auto. split; auto. apply IH; auto.
Qed.
Lemma aset_fwf (m : amap json) k v : Forall fwf m -> fwf (k, v) -> Forall fwf (aset m k v).
Proof.
  induction m as [|[k0 v0] r IH]; cbn [aset]; intros F Q; [constructor; auto|].
  inversion F; subst. destruct (bcompare k k0); constructor; auto.
Qed.
Lemma cgo_fwf l : forall acc, Forall fwf acc -> Forall (fun kv => wf_bytes (fst kv) /\ json_wf (canon (snd kv))) l -> Forall fwf (cgo l acc).
Proof.
  induction l as [|[k v] r IH]; intros acc Fa Fl; cbn [cgo]; auto.
  inversion Fl as [|? ? [Wk Wv] Fr]; subst. apply IH; auto. apply aset_fwf; auto. split; auto.
Qed.
Lemma canon_wf : forall j, json_wf j -> json_wf (canon j).
Proof.
  induction j as [|b|s|l IH|l IH] using json_ind'; intros W; auto.
  - cbn [canon]. apply json_wf_arr. apply json_wf_arr in W. rewrite Forall_forall in *.
    intros y Hy. apply in_map_iff in Hy. destruct Hy as (x & <- & Hx). apply IH; auto.
  - rewrite canon_obj. apply json_wf_obj. apply json_wf_obj in W. apply cgo_fwf; [constructor|].
    rewrite Forall_forall in *. intros kv Hkv. destruct (W _ Hkv) as [Wk Wv]. split; [exact Wk|apply (IH _ Hkv); exact Wv].
Qed.

Definition k_chain : bytes := [99; 104; 97; 105; 110; 95; 105; 100]%N.
Definition k_entropy : bytes := [101; 110; 116; 114; 111; 112; 121]%N.
Definition k_fee : bytes := [102; 101; 101]%N.
Definition k_memo : bytes := [109; 101; 109; 111]%N.
Definition k_msg : bytes := [109; 115; 103]%N.
Lemma canon_sign_doc c e m f g :
  canon (sign_doc c e m f g) = JObj [(k_chain, JStr c); (k_entropy, JStr e); (k_fee, canon f); (k_memo, JStr m); (k_msg, canon g)].
Proof. reflexivity. Qed.
(* same logical content (whatever the field order, duplicates or nesting of fee and message) => same bytes *)
Theorem sign_bytes_canonical c e m f g f' g' :
  canon f = canon f' -> canon g = canon g' -> sign_bytes c e m f g = sign_bytes c e m f' g'.
Proof. intros Ef Eg. unfold sign_bytes, sort_json. rewrite !canon_sign_doc, Ef, Eg. reflexivity. Qed.
(* different content => different bytes *)
Theorem sign_bytes_injective c e m f g c' e' m' f' g' :
  wf_bytes c -> wf_bytes e -> wf_bytes m -> json_wf f -> json_wf g ->
  wf_bytes c' -> wf_bytes e' -> wf_bytes m' -> json_wf f' -> json_wf g' ->
  sign_bytes c e m f g = sign_bytes c' e' m' f' g' ->
  c = c' /\ e = e' /\ m = m' /\ canon f = canon f' /\ canon g = canon g'.
Proof.
  intros _ _ _ _ _ _ _ _ _ _ H. unfold sign_bytes, sort_json in H. rewrite !canon_sign_doc in H.
  apply render_inj in H. injection H as -> -> Ef -> Eg. auto.
Qed.
