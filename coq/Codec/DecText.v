(* C20: the text form of Dec (types/decimal.go String / NewDecFromStr: eighteen fractional digits, manual zero
   padding, manual placement of the point) as functions on byte strings, and the round trip. *)
From Coq Require Import List ZArith Bool Lia.
From PM Require Import Base.Bytes.
Import ListNotations.
Local Open Scope Z_scope.

(* decimal digits of a non-negative number, most significant first, no leading zeros ("0" for zero) *)
Fixpoint udigits (fuel : nat) (z : Z) : bytes :=
  match fuel with
  | O => [Z.to_N (48 + z mod 10)]
  | S f => if z <? 10 then [Z.to_N (48 + z)] else udigits f (z / 10) ++ [Z.to_N (48 + z mod 10)]
  end.
Definition big_text (z : Z) : bytes := udigits (Z.to_nat (Z.log2 z)) z.       (* big.Int.MarshalText of z >= 0 *)
Definition zeros (n : nat) : bytes := repeat 48%N n.

Definition dec_to_text (z : Z) : bytes :=
  let ds := big_text (Z.abs z) in
  let n := length ds in
  let body := if Nat.leb n 18 then [48%N; 46%N] ++ zeros (18 - n) ++ ds
              else firstn (n - 18) ds ++ [46%N] ++ skipn (n - 18) ds in
  if z <? 0 then 45%N :: body else body.

Definition is_digit (b : N) : bool := ((48 <=? b) && (b <=? 57))%N.
Fixpoint dvalue (acc : Z) (l : bytes) : option Z :=
  match l with
  | [] => Some acc
  | b :: r => if is_digit b then dvalue (acc * 10 + (Z.of_N b - 48)) r else None
  end.
(* strings.Split(s, ".") *)
Fixpoint split_dot (cur : bytes) (l : bytes) : list bytes :=
  match l with
  | [] => [rev cur]
  | b :: r => if (b =? 46)%N then rev cur :: split_dot [] r else split_dot (b :: cur) r
  end.
(* NewDecFromStr on an optional leading minus, then digits, optionally a point and 1 to 18 more digits; anything else is
   refused (a sign further inside included, which Go leaves to big.Int.SetString) *)
Definition text_to_dec (s : bytes) : option Z :=
  match s with
  | [] => None
  | b0 :: r0 =>
    let '(neg, s1) := if (b0 =? 45)%N then (true, r0) else (false, s) in
    match s1 with
    | [] => None
    | _ =>
      let combined :=
        match split_dot [] s1 with
        | [i] => Some (i ++ zeros 18)
        | [i; f] => if (Nat.eqb (length f) 0 || Nat.eqb (length i) 0 || Nat.ltb 18 (length f))%bool then None
                    else Some (i ++ f ++ zeros (18 - length f))
        | _ => None
        end in
      match combined with
      | None => None
      | Some [] => None
      | Some c => match dvalue 0 c with Some v => Some (if neg then - v else v) | None => None end
      end
    end
  end.

Definition all_digits (l : bytes) : Prop := Forall (fun b => is_digit b = true) l.
(* [l] is a run of digits that [dvalue] reads as [z], shifting what it has read before by some power [k] of ten *)
Definition reads_as (l : bytes) (z : Z) : Prop :=
  all_digits l /\ exists k, forall acc rest, dvalue acc (l ++ rest) = dvalue (acc * k + z) rest.
Lemma digit_spec z acc rest : 0 <= z < 10 ->
  is_digit (Z.to_N (48 + z)) = true /\ dvalue acc (Z.to_N (48 + z) :: rest) = dvalue (acc * 10 + z) rest.
Proof.
  intros H. assert (D : is_digit (Z.to_N (48 + z)) = true).
  { unfold is_digit. apply andb_true_iff; split; apply N.leb_le; lia. }
  split; [exact D|]. cbn [dvalue]. rewrite D. f_equal. lia.
Qed.
Lemma reads_digit z : 0 <= z < 10 -> reads_as [Z.to_N (48 + z)] z.
Proof.
  intros H. split; [repeat constructor; apply (digit_spec z 0 []), H|].
  exists 10. intros acc rest. apply digit_spec, H.
Qed.
Lemma reads_snoc l q d : reads_as l q -> 0 <= d < 10 -> reads_as (l ++ [Z.to_N (48 + d)]) (q * 10 + d).
Proof.
  intros (A & k & V) Hd. split; [apply Forall_app; split; [exact A|apply reads_digit, Hd]|].
  exists (k * 10). intros acc rest. rewrite <- app_assoc, V. cbn [app].
  rewrite (proj2 (digit_spec d _ rest Hd)). f_equal. ring.
Qed.
Lemma udigits_small f z : 0 <= z < 10 -> udigits f z = [Z.to_N (48 + z)].
Proof.
  intros H. destruct f; cbn [udigits]; [rewrite Z.mod_small by lia; reflexivity|].
  destruct (Z.ltb_spec z 10); [reflexivity|lia].
Qed.
Lemma udigits_spec f : forall z, 0 <= z -> Z.log2 z <= Z.of_nat f -> reads_as (udigits f z) z.
Proof.
  induction f as [|f IH]; intros z Hz Hl; destruct (Z.ltb_spec z 10) as [L|G].
  - rewrite udigits_small by lia. apply reads_digit. lia.
  - pose proof (Z.log2_le_mono 8 z ltac:(lia)) as M. change (Z.log2 8) with 3 in M. lia.
  - rewrite udigits_small by lia. apply reads_digit. lia.
  - cbn [udigits]. destruct (Z.ltb_spec z 10); [lia|].
    (* fuel: dividing by ten takes off at least one binary digit *)
    assert (Lq : Z.log2 (z / 10) <= Z.of_nat f).
    { assert (M : Z.log2 (z / 10) <= Z.log2 (z / 2)) by (apply Z.log2_le_mono, Z.div_le_compat_l; lia).
      rewrite <- Z.div2_div, Z.div2_spec, Z.log2_shiftr in M by lia. lia. }
    replace z with (z / 10 * 10 + z mod 10) at 3 by (pose proof (Z.div_mod z 10); lia).
    apply reads_snoc; [apply IH; [apply Z.div_pos; lia|exact Lq]|apply Z.mod_pos_bound; lia].
Qed.
Lemma big_text_spec z : 0 <= z -> all_digits (big_text z) /\ dvalue 0 (big_text z) = Some z.
Proof.
  intros H. destruct (udigits_spec (Z.to_nat (Z.log2 z)) z H) as (A & k & V).
  - rewrite Z2Nat.id by apply Z.log2_nonneg. lia.
  - split; [exact A|]. rewrite <- (app_nil_r (big_text z)). exact (V 0 []).
Qed.
Lemma zeros_value n l : dvalue 0 (zeros n ++ l) = dvalue 0 l.
Proof. induction n as [|n IH]; [reflexivity|exact IH]. Qed.
Lemma zeros_digits n : all_digits (zeros n).
Proof. induction n; simpl; constructor; auto. Qed.
Lemma digit_not_dot b : is_digit b = true -> (b =? 46)%N = false /\ (b =? 45)%N = false.
Proof. unfold is_digit. intros H. apply andb_true_iff in H. destruct H as [H1 H2]. apply N.leb_le in H1, H2. split; apply N.eqb_neq; lia. Qed.
Lemma split_dot_digits a t : all_digits a -> forall cur, split_dot cur (a ++ t) = split_dot (rev a ++ cur) t.
Proof.
  induction a as [|b a IH]; intros A cur; [reflexivity|]. inversion A; subst.
  cbn [app split_dot rev]. rewrite (proj1 (digit_not_dot b H1)), IH, <- app_assoc by auto. reflexivity.
Qed.
Lemma split_dot_point I F : all_digits I -> all_digits F -> split_dot [] (I ++ 46%N :: F) = [I; F].
Proof.
  intros AI AF. rewrite split_dot_digits by auto. cbn [split_dot]. change (46 =? 46)%N with true. cbv iota.
  rewrite <- (app_nil_r F) at 1. rewrite split_dot_digits by auto. cbn [split_dot].
  rewrite !app_nil_r, !rev_involutive. reflexivity.
Qed.

Lemma text_to_dec_neg b0 r0 : (b0 =? 45)%N = false ->
  text_to_dec (45%N :: b0 :: r0) = option_map Z.opp (text_to_dec (b0 :: r0)).
Proof.
  intros E. unfold text_to_dec. rewrite E. change (45 =? 45)%N with true. cbv iota beta zeta.
  destruct (split_dot [] (b0 :: r0)) as [|i [|f [|? ?]]]; try reflexivity.
  - destruct (i ++ zeros 18); [reflexivity|]. destruct (dvalue 0 _); reflexivity.
  - destruct (_ || _ || _)%bool; [reflexivity|].
    destruct (i ++ f ++ zeros (18 - length f)); [reflexivity|]. destruct (dvalue 0 _); reflexivity.
Qed.
(* integer part I (non-empty digits) and fraction F (exactly eighteen digits) of the printed body *)
Lemma body_roundtrip (I F : bytes) (v : Z) : all_digits I -> all_digits F -> I <> [] -> length F = 18%nat ->
  dvalue 0 (I ++ F) = Some v ->
  forall neg : bool, text_to_dec ((if neg then [45%N] else []) ++ I ++ 46%N :: F) = Some (if neg then - v else v).
Proof.
  intros AI AF NI LF V neg. destruct I as [|b0 r0]; [contradiction|].
  assert (E : (b0 =? 45)%N = false) by (inversion AI; subst; apply digit_not_dot; assumption).
  assert (P : text_to_dec ((b0 :: r0) ++ 46%N :: F) = Some v).
  { pose proof (split_dot_point (b0 :: r0) F AI AF) as S. cbn [app] in S |- *.
    unfold text_to_dec. rewrite E, S, LF.
    cbn [length Nat.eqb Nat.ltb Nat.leb orb Nat.sub zeros repeat]. rewrite app_nil_r.
    cbn [app] in V |- *. rewrite V. reflexivity. }
  destruct neg; [|exact P]. cbn [app] in P |- *. rewrite text_to_dec_neg by exact E.
  exact (f_equal (option_map Z.opp) P).
Qed.

Theorem dec_text_roundtrip z : text_to_dec (dec_to_text z) = Some z.
Proof.
  unfold dec_to_text. destruct (big_text_spec (Z.abs z) (Z.abs_nonneg z)) as [A V].
  set (ds := big_text (Z.abs z)) in *. set (n := length ds). set (body := if Nat.leb n 18 then _ else _).
  assert (Res : forall neg : bool,
    text_to_dec ((if neg then [45%N] else []) ++ body) = Some (if neg then - Z.abs z else Z.abs z)).
  { subst body. destruct (Nat.leb_spec n 18) as [Le|Gt].
    - apply (body_roundtrip [48%N] (zeros (18 - n) ++ ds)).
      + repeat constructor.
      + apply Forall_app; split; [apply zeros_digits|exact A].
      + discriminate.
      + rewrite app_length. unfold zeros. rewrite repeat_length. fold n. lia.
      + rewrite <- V. exact (zeros_value (S (18 - n)) ds).
    - rewrite <- (firstn_skipn (n - 18) ds) in A, V. apply Forall_app in A as [AI AF].
      apply body_roundtrip; auto.
      + intros E. apply (f_equal (@length _)) in E. rewrite firstn_length in E. fold n in E. simpl in E. lia.
      + rewrite skipn_length. fold n. lia. }
  destruct (Z.ltb_spec z 0); [rewrite (Res true : text_to_dec (45%N :: body) = _)|rewrite (Res false : text_to_dec body = _)];
    f_equal; lia.
Qed.
