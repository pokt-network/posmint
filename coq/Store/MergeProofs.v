(* C15: the cacheMergeIterator state machine (skipUntilExistsOrInvalid / Key / Value / Next
   as coded) yields exactly the overlay of the parent sequence with the cache items:
   sorted in the iteration direction, duplicate-free, without deleted keys. *)
From Coq Require Import List Lia.
From PM Require Import Base.Bytes Store.KV.
Import ListNotations.

Lemma cmp_desc a b : cmp false a b = bcompare b a.
Proof. symmetry. apply bcompare_antisym. Qed.
Lemma cmp_eq asc a b : cmp asc a b = Eq <-> a = b.
Proof. destruct asc; [apply bcompare_eq|]. rewrite cmp_desc, bcompare_eq. split; congruence. Qed.
Lemma cmp_refl asc a : cmp asc a a = Eq. Proof. apply cmp_eq; auto. Qed.
Lemma cmp_antisym asc a b : cmp asc b a = CompOpp (cmp asc a b).
Proof. destruct asc; [|rewrite !cmp_desc]; apply bcompare_antisym. Qed.
Lemma cmp_lt_trans asc a b c : cmp asc a b = Lt -> cmp asc b c = Lt -> cmp asc a c = Lt.
Proof.
  destruct asc; [apply bcompare_lt_trans|]. rewrite !cmp_desc.
  intros H1 H2. exact (bcompare_lt_trans _ _ _ H2 H1).
Qed.
Lemma cmp_gt_lt asc a b : cmp asc a b = Gt <-> cmp asc b a = Lt.
Proof. rewrite (cmp_antisym asc a b). destruct (cmp asc a b); simpl; split; congruence. Qed.

Definition ocons (k : bytes) (o : option bytes) (l : list (bytes * bytes)) : list (bytes * bytes) :=
  match o with Some v => (k, v) :: l | None => l end.
Fixpoint somes (cac : list mem_item) : list (bytes * bytes) :=
  match cac with [] => [] | (k, o) :: r => ocons k o (somes r) end.
Fixpoint merge_spec (asc : bool) (par : list (bytes * bytes)) : list mem_item -> list (bytes * bytes) :=
  fix go (cac : list mem_item) : list (bytes * bytes) :=
    match par, cac with
    | [], _ => somes cac
    | _, [] => par
    | (kp, vp) :: pr, (kc, vc) :: cr =>
      match cmp asc kp kc with
      | Lt => (kp, vp) :: merge_spec asc pr cac
      | Eq => ocons kp vc (merge_spec asc pr cr)
      | Gt => ocons kc vc (go cr)
      end
    end.
Lemma merge_spec_nil_l asc cac : merge_spec asc [] cac = somes cac.
Proof. destruct cac; reflexivity. Qed.
Lemma merge_spec_nil_r asc par : merge_spec asc par [] = par.
Proof. destruct par as [|[k v] r]; reflexivity. Qed.
Lemma merge_spec_cons asc kp vp pr kc vc cr :
  merge_spec asc ((kp, vp) :: pr) ((kc, vc) :: cr) =
  match cmp asc kp kc with
  | Lt => (kp, vp) :: merge_spec asc pr ((kc, vc) :: cr)
  | Eq => ocons kp vc (merge_spec asc pr cr)
  | Gt => ocons kc vc (merge_spec asc ((kp, vp) :: pr) cr)
  end.
Proof. reflexivity. Qed.

Lemma skip_none_spec asc cac : somes (skip_cache_deletes asc None cac) = somes cac /\
  match skip_cache_deletes asc None cac with (k, None) :: _ => False | _ => True end.
Proof. induction cac as [|[k [v|]] r IH]; simpl; auto. Qed.
Lemma skip_len asc u cac : length (skip_cache_deletes asc u cac) <= length cac.
Proof.
  induction cac as [|[k [v|]] r IH]; simpl; auto.
  destruct u as [u|]; [destruct (cmp asc k u)|]; simpl; lia.
Qed.
Lemma skip_until_key_spec asc kp vp pr cac :
  merge_spec asc ((kp, vp) :: pr) (skip_cache_deletes asc (Some kp) cac) = merge_spec asc ((kp, vp) :: pr) cac.
Proof.
  induction cac as [|[k [v|]] r IH]; simpl skip_cache_deletes; auto.
  destruct (cmp asc k kp) eqn:C; auto.
  rewrite IH. symmetry. etransitivity; [apply merge_spec_cons|].
  rewrite (cmp_antisym asc k kp), C. reflexivity.
Qed.

Definition msize (it : miter) : nat := length (mi_par it) + length (mi_cac it).
Definition mspec (it : miter) : list (bytes * bytes) := merge_spec (mi_asc it) (mi_par it) (mi_cac it).

(* Key/Value/Next at a position that shows a live item: the merge emits it and goes on from m_next *)
Lemma m_step it k v : m_current it = Some (k, Some v) ->
  mspec it = (k, v) :: mspec (m_next it) /\ msize (m_next it) < msize it.
Proof.
  destruct it as [[|[kp vp] pr] [|[kc vc] cr] asc]; unfold m_current, m_next, mspec, msize; cbn [mi_par mi_cac mi_asc].
  - discriminate.
  - intros [= -> ->]. rewrite !merge_spec_nil_l. simpl. auto.
  - intros [= -> ->]. rewrite !merge_spec_nil_r. simpl. split; [reflexivity|lia].
  - rewrite merge_spec_cons. destruct (cmp asc kp kc); intros [= -> ->]; simpl; split; auto; lia.
Qed.

(* skipUntilExistsOrInvalid drops only what the merge drops, and stops at a live item or at the end *)
Definition skipped (it it1 : miter) (b : bool) : Prop :=
  msize it1 <= msize it /\ mspec it1 = mspec it /\
  if b then exists k v, m_current it1 = Some (k, Some v) else mspec it1 = [].
Lemma skip_until_spec fuel : forall it, msize it < fuel ->
  exists it1 b, skip_until fuel it = Some (it1, b) /\ skipped it it1 b.
Proof.
  induction fuel as [|f IH]; intros it Hf; [lia|].
  assert (Here : forall k v, m_current it = Some (k, Some v) ->
    exists it1 b, Some (it, true) = Some (it1, b) /\ skipped it it1 b).
  { intros k v E. exists it, true. unfold skipped. eauto 6. }
  unfold skipped in *.
  destruct it as [[|[kp vp] pr] cac asc]; cbn [skip_until mi_par mi_cac mi_asc].
  - pose proof (skip_len asc None cac) as Hl. destruct (skip_none_spec asc cac) as [Hs Hh].
    eexists _, _. split; [reflexivity|]. unfold msize, mspec. cbn [mi_par mi_cac mi_asc mk_miter].
    rewrite !merge_spec_nil_l. split; [simpl; lia|]. split; [exact Hs|].
    destruct (skip_cache_deletes asc None cac) as [|[k [v|]] r]; [reflexivity|exists k, v; reflexivity|contradiction].
  - destruct cac as [|[kc [v|]] cr]; [eapply Here; reflexivity| |].
    { destruct (cmp asc kp kc) eqn:C; eapply Here; unfold m_current; simpl; rewrite C; reflexivity. }
    unfold msize, mspec in *. cbn [mi_par mi_cac mi_asc] in *.
    destruct (cmp asc kp kc) eqn:C.
    + destruct (IH (mk_miter pr cr asc)) as (it1 & b & E & S & M & St); [simpl in *; lia|].
      exists it1, b. rewrite merge_spec_cons, C. simpl in *. split; [exact E|]. split; [lia|]. split; assumption.
    + eapply Here; unfold m_current; simpl; rewrite C; reflexivity.
    + (* a deleted cache entry before the parent key: skipCacheDeletes(keyP) *)
      set (c := skip_cache_deletes asc (Some kp) ((kc, None) :: cr)).
      assert (Hc : c = skip_cache_deletes asc (Some kp) cr).
      { unfold c. simpl. rewrite (cmp_antisym asc kp kc), C. reflexivity. }
      pose proof (skip_len asc (Some kp) cr) as Hl. rewrite <- Hc in Hl.
      destruct (IH (mk_miter ((kp, vp) :: pr) c asc)) as (it1 & b & E & S & M & St); [simpl in *; lia|].
      exists it1, b. cbn [mi_par mi_cac mi_asc mk_miter ocons] in *. split; [exact E|]. split; [simpl in *; lia|].
      split; [|exact St]. rewrite M. apply skip_until_key_spec.
Qed.

Lemma m_collect_unfold f it :
  m_collect (S f) it =
  match skip_until (S (msize it)) it with
  | None => None
  | Some (it1, false) => Some []
  | Some (it1, true) =>
    match m_current it1 with
    | Some (k, Some v) =>
      match m_collect f (m_next it1) with Some r => Some ((k, v) :: r) | None => None end
    | _ => None
    end
  end.
Proof. reflexivity. Qed.

(* C15: iterating the merge iterator to exhaustion yields the overlay merge *)
Lemma m_collect_spec fuel : forall it, msize it < fuel -> m_collect fuel it = Some (mspec it).
Proof.
  induction fuel as [|f IH]; intros it Hf; [lia|].
  rewrite m_collect_unfold.
  destruct (skip_until_spec (S (msize it)) it) as (it1 & b & -> & S1 & <- & St); [lia|].
  destruct b; [|rewrite St; reflexivity].
  destruct St as (k & v & Cu). destruct (m_step it1 k v Cu) as [-> Hlt].
  rewrite Cu, IH by lia. reflexivity.
Qed.
Theorem merge_run_spec par cac asc : merge_run par cac asc = Some (merge_spec asc par cac).
Proof. apply (m_collect_spec _ (mk_miter par cac asc)). unfold msize; simpl; lia. Qed.

Section Sem.
  Variable asc : bool.
  Fixpoint dsorted {V} (l : list (bytes * V)) : Prop :=
    match l with
    | [] => True
    | x :: r => (forall y, In y r -> cmp asc (fst x) (fst y) = Lt) /\ dsorted r
    end.
  Fixpoint assoc {V} (l : list (bytes * V)) (k : bytes) : option V :=
    match l with [] => None | (k0, v0) :: r => if beqb k0 k then Some v0 else assoc r k end.
  Definition below {V} (d : bytes) (l : list (bytes * V)) : Prop := forall y, In y l -> cmp asc d (fst y) = Lt.

  Definition overlay_at (par : list (bytes * bytes)) (cac : list mem_item) (k : bytes) : option bytes :=
    match assoc cac k with Some (Some v) => Some v | Some None => None | None => assoc par k end.

  Lemma lt_neq a b : cmp asc a b = Lt -> beqb a b = false /\ beqb b a = false.
  Proof.
    intros H. rewrite (beqb_sym b a). destruct (beqb a b) eqn:E; auto.
    apply beqb_eq in E; subst. rewrite cmp_refl in H; discriminate.
  Qed.
  Lemma below_cons_iff {V} d (x : bytes * V) l : below d (x :: l) <-> cmp asc d (fst x) = Lt /\ below d l.
  Proof.
    split.
    - intros B. split; [apply B; left; auto|intros y Hy; apply B; right; auto].
    - intros [L B] y [<-|Hy]; auto.
  Qed.
  Lemma below_trans {V} d d' (l : list (bytes * V)) : cmp asc d d' = Lt -> below d' l -> below d l.
  Proof. intros L B y Hy. eapply cmp_lt_trans; eauto. Qed.
  Lemma assoc_below {V} d (l : list (bytes * V)) : below d l -> assoc l d = None.
  Proof.
    induction l as [|[k v] r IH]; simpl; auto. rewrite below_cons_iff. intros [L B]. simpl in L.
    destruct (lt_neq _ _ L) as [_ ->]. auto.
  Qed.

  Lemma below_cons {V} d k (v : V) l : cmp asc d k = Lt -> dsorted ((k, v) :: l) -> below d ((k, v) :: l).
  Proof. intros L [B _]. apply below_cons_iff. split; [exact L|exact (below_trans _ _ _ L B)]. Qed.
  Lemma assoc_head {V} k (v : V) l : assoc ((k, v) :: l) k = Some v.
  Proof. simpl. rewrite beqb_refl. reflexivity. Qed.

  Lemma dsorted_ext {V} (a : list (bytes * V)) : forall b, dsorted a -> dsorted b ->
    (forall k, assoc a k = assoc b k) -> a = b.
  Proof.
    induction a as [|[ka va] a IH]; intros [|[kb vb] b] Sa Sb E; auto.
    - specialize (E kb). rewrite assoc_head in E. discriminate.
    - specialize (E ka). rewrite assoc_head in E. discriminate.
    - assert (ka = kb) as ->.
      { (* the smaller of two different heads would be missing from the other list *)
        destruct (cmp asc ka kb) eqn:C; [apply cmp_eq in C; auto|exfalso|exfalso; apply cmp_gt_lt in C].
        - specialize (E ka). rewrite assoc_head, (assoc_below ka) in E by (apply below_cons; auto). discriminate.
        - specialize (E kb). rewrite assoc_head, (assoc_below kb) in E by (apply below_cons; auto). discriminate. }
      pose proof (E kb) as E0. rewrite !assoc_head in E0. injection E0 as ->.
      destruct Sa as [Ba Sa], Sb as [Bb Sb]. f_equal. apply IH; auto.
      intros k. specialize (E k). simpl in E. destruct (beqb kb k) eqn:B; auto.
      apply beqb_eq in B; subst. rewrite !assoc_below; auto.
  Qed.

  (* every step of the merge puts an optional binding in front of a list whose keys come later *)
  Lemma below_ocons d k o l : cmp asc d k = Lt -> below d l -> below d (ocons k o l).
  Proof. destruct o; simpl; auto. intros L B. apply below_cons_iff; auto. Qed.
  Lemma ocons_sem k o l : below k l -> dsorted l ->
    dsorted (ocons k o l) /\ forall k', assoc (ocons k o l) k' = if beqb k k' then o else assoc l k'.
  Proof.
    intros B S. destruct o as [v|]; simpl; auto. split; auto.
    intros k'. destruct (beqb k k') eqn:E; auto. apply beqb_eq in E; subst. apply assoc_below; auto.
  Qed.
  Lemma overlay_at_cons par k o cr k' :
    overlay_at par ((k, o) :: cr) k' = if beqb k k' then o else overlay_at par cr k'.
  Proof. unfold overlay_at. simpl. destruct (beqb k k'); [destruct o|]; reflexivity. Qed.

  Lemma merge_spec_below d : forall par cac, below d par -> below d cac -> below d (merge_spec asc par cac).
  Proof.
    induction par as [|[kp vp] pr IHp].
    - intros cac _. rewrite merge_spec_nil_l. induction cac as [|[k o] r IH]; simpl; [intros _ y []|].
      rewrite below_cons_iff. intros [L B]. apply below_ocons; auto.
    - induction cac as [|[kc vc] cr IHc]; [rewrite merge_spec_nil_r; auto|].
      rewrite merge_spec_cons. intros Bp Bc.
      pose proof Bp as [Lp Bp']%below_cons_iff. pose proof Bc as [Lc Bc']%below_cons_iff.
      destruct (cmp asc kp kc); [apply below_ocons|apply below_cons_iff|apply below_ocons]; auto.
  Qed.

  Lemma merge_spec_sem par : forall cac, dsorted par -> dsorted cac ->
    dsorted (merge_spec asc par cac) /\ forall k, assoc (merge_spec asc par cac) k = overlay_at par cac k.
  Proof.
    induction par as [|[kp vp] pr IHp].
    - intros cac _. rewrite merge_spec_nil_l. induction cac as [|[k o] r IH]; simpl; auto. intros [B S].
      destruct (IH S) as [S0 A0].
      destruct (ocons_sem k o (somes r)) as [S1 A1]; auto.
      { rewrite <- (merge_spec_nil_l asc). apply merge_spec_below; auto. intros y []. }
      split; auto. intros k'. rewrite A1, A0. symmetry. apply overlay_at_cons.
    - induction cac as [|[kc vc] cr IHc]; intros Sp Sc.
      + rewrite merge_spec_nil_r. auto.
      + rewrite merge_spec_cons. destruct Sp as [Bp Sp']. destruct Sc as [Bc Sc']. simpl in Bp, Bc.
        destruct (cmp asc kp kc) eqn:C.
        * apply cmp_eq in C; subst kc. destruct (IHp cr Sp' Sc') as [S0 A0].
          destruct (ocons_sem kp vc (merge_spec asc pr cr)) as [S1 A1]; auto using merge_spec_below.
          split; auto. intros k. rewrite A1, A0, overlay_at_cons.
          unfold overlay_at. simpl. destruct (beqb kp k); reflexivity.
        * destruct (IHp ((kc, vc) :: cr) Sp' (conj Bc Sc')) as [S0 A0].
          pose proof (below_cons kp kc vc cr C (conj Bc Sc')) as Bk.
          split; [split; [apply merge_spec_below|]; auto|].
          intros k. simpl. rewrite A0. unfold overlay_at at 2. simpl assoc at 2.
          destruct (beqb kp k) eqn:E; auto. apply beqb_eq in E; subst. rewrite (assoc_below _ _ Bk). reflexivity.
        * apply cmp_gt_lt in C. destruct (IHc (conj Bp Sp') Sc') as [S0 A0].
          pose proof (below_cons kc kp vp pr C (conj Bp Sp')) as Bk.
          destruct (ocons_sem kc vc (merge_spec asc ((kp, vp) :: pr) cr)) as [S1 A1]; auto using merge_spec_below.
          split; auto. intros k. rewrite A1, A0. symmetry. apply overlay_at_cons.
  Qed.
End Sem.

(* keys are unique in a sorted list: the lookup finds the one entry there is *)
Lemma assoc_in asc {V} (m : list (bytes * V)) k v : dsorted asc m -> In (k, v) m <-> assoc m k = Some v.
Proof.
  induction m as [|[k0 v0] r IH]; simpl; [split; [intros []|discriminate]|].
  intros [B S]. destruct (beqb k0 k) eqn:E.
  - apply beqb_eq in E; subst. split.
    + intros [[= ->]|Hin]; auto. pose proof (B (k, v) Hin) as L. simpl in L. rewrite cmp_refl in L. discriminate.
    + intros [= ->]; auto.
  - rewrite <- (IH S). split; auto.
    intros [[= -> _]|Hin]; [rewrite beqb_refl in E; discriminate|exact Hin].
Qed.
(* so two sorted lists, whatever their directions, with the same elements have the same lookups *)
Lemma assoc_same_in asc1 asc2 {V} (a b : list (bytes * V)) k : dsorted asc1 a -> dsorted asc2 b ->
  (forall y, In y a <-> In y b) -> assoc a k = assoc b k.
Proof.
  intros Sa Sb E. destruct (assoc a k) as [v|] eqn:Ea.
  - symmetry. apply (assoc_in asc2 _ _ _ Sb), E, (assoc_in asc1 _ _ _ Sa), Ea.
  - destruct (assoc b k) as [v|] eqn:Eb; auto.
    apply (assoc_in asc2 _ _ _ Sb), E, (assoc_in asc1 _ _ _ Sa) in Eb. congruence.
Qed.

(* C15 (iteration): what the merge iterator returns is sorted in the iteration direction
   (hence duplicate-free), never contains a deleted key, and maps every key to the cache's
   value if the cache has an entry and to the parent's value otherwise *)
Theorem merge_iterator_is_overlay asc par cac l :
  dsorted asc par -> dsorted asc cac -> merge_run par cac asc = Some l ->
  dsorted asc l /\ forall k, assoc l k = overlay_at par cac k.
Proof.
  intros Sp Sc E. rewrite merge_run_spec in E. injection E as <-.
  exact (merge_spec_sem asc par cac Sp Sc).
Qed.
Theorem merge_iterator_total asc par cac : exists l, merge_run par cac asc = Some l.
Proof. eexists; apply merge_run_spec. Qed.
