(* C16: prefix isolation and exact gas, for whole operations.
   - a prefix store over a map reads, writes and deletes exactly the key prefix ++ k and leaves every key without the
     prefix untouched (what iterating it yields is in IterGas.v);
   - a gas store charges exactly flat + per-byte * length for Get / Set, the flat cost for Has / Delete. *)
From Coq Require Import List NArith Bool.
From PM Require Import Base.Bytes Store.KV Store.KVProofs.
Import ListNotations.
Local Open Scope N_scope.

Lemma consume_ok a w w' : consume a w = (Ok tt, w') ->
  w_consumed w' = w_consumed w + a /\ w_limit w' = w_limit w /\ w_cfg w' = w_cfg w /\ w_trace w' = w_trace w.
Proof.
  unfold consume. destruct (_ <? a); [discriminate|]. destruct (w_limit w) as [lim|] eqn:L.
  - destruct (lim <? _); [discriminate|]. intros [= <-]. simpl. auto.
  - intros [= <-]. simpl. auto.
Qed.
Theorem gas_set_exact m k v w p' w' : s_set (Gas (Base m)) k v w = (Ok tt, p', w') ->
  p' = Gas (Base (aset m k v)) /\
  w_consumed w' = w_consumed w + g_write_flat (w_cfg w) + mul64 (g_write_byte (w_cfg w)) (blen v).
Proof.
  simpl. destruct (consume (g_write_flat (w_cfg w)) w) as [[[]|x] w1] eqn:E1; [|discriminate].
  destruct (consume_ok _ _ _ E1) as (C1 & _ & F1 & _).
  destruct (consume (mul64 (g_write_byte (w_cfg w1)) (blen v)) w1) as [[[]|x] w2] eqn:E2; [|discriminate].
  destruct (consume_ok _ _ _ E2) as (C2 & _ & _ & _). intros [= <- <-]. split; auto. rewrite C2, C1, F1. reflexivity.
Qed.
Theorem gas_get_exact m k w r p' w' : s_get (Gas (Base m)) k w = (Ok r, p', w') ->
  r = aget m k /\ p' = Gas (Base m) /\
  w_consumed w' = w_consumed w + g_read_flat (w_cfg w) + mul64 (g_read_byte (w_cfg w)) (olen r).
Proof.
  simpl. destruct (consume (g_read_flat (w_cfg w)) w) as [[[]|x] w1] eqn:E1; [|discriminate].
  destruct (consume_ok _ _ _ E1) as (C1 & _ & F1 & _).
  destruct (consume (mul64 (g_read_byte (w_cfg w1)) (olen (aget m k))) w1) as [[[]|x] w2] eqn:E2; [|discriminate].
  destruct (consume_ok _ _ _ E2) as (C2 & _ & _ & _). intros [= <- <- <-]. repeat split; auto. rewrite C2, C1, F1. reflexivity.
Qed.
Theorem gas_delete_exact m k w p' w' : s_delete (Gas (Base m)) k w = (Ok tt, p', w') ->
  p' = Gas (Base (adel m k)) /\ w_consumed w' = w_consumed w + g_delete (w_cfg w).
Proof.
  simpl. destruct (consume (g_delete (w_cfg w)) w) as [[[]|x] w1] eqn:E1; [|discriminate].
  destruct (consume_ok _ _ _ E1) as (C1 & _). intros [= <- <-]. auto.
Qed.
Theorem gas_has_exact m k w r p' w' : s_has (Gas (Base m)) k w = (Ok r, p', w') ->
  r = (match aget m k with Some _ => true | None => false end) /\ p' = Gas (Base m) /\
  w_consumed w' = w_consumed w + g_has (w_cfg w).
Proof.
  simpl. destruct (consume (g_has (w_cfg w)) w) as [[[]|x] w1] eqn:E1; [|discriminate].
  destruct (consume_ok _ _ _ E1) as (C1 & _). intros [= <- <- <-]. auto.
Qed.

Lemma off_prefix pfx k k' : has_prefix pfx k' = false -> beqb (pfx ++ k) k' = false.
Proof.
  intros N. destruct (beqb (pfx ++ k) k') eqn:B; auto. apply beqb_eq in B. subst k'.
  rewrite (proj2 (has_prefix_app pfx _)) in N by eauto. discriminate.
Qed.
Theorem prefix_set_isolated pfx m k v w :
  s_set (Prefix pfx (Base m)) k v w = (Ok tt, Prefix pfx (Base (aset m (pfx ++ k) v)), w) /\
  forall k', has_prefix pfx k' = false -> aget (aset m (pfx ++ k) v) k' = aget m k'.
Proof.
  split; [reflexivity|]. intros k' N. rewrite aget_aset, (off_prefix _ _ _ N). reflexivity.
Qed.
Theorem prefix_delete_isolated pfx m k w : asorted m ->
  s_delete (Prefix pfx (Base m)) k w = (Ok tt, Prefix pfx (Base (adel m (pfx ++ k))), w) /\
  forall k', has_prefix pfx k' = false -> aget (adel m (pfx ++ k)) k' = aget m k'.
Proof.
  intros S. split; [reflexivity|]. intros k' N. rewrite aget_adel, (off_prefix _ _ _ N) by auto. reflexivity.
Qed.
Theorem prefix_get_reads_prefixed_key pfx m k w : s_get (Prefix pfx (Base m)) k w = (Ok (aget m (pfx ++ k)), Prefix pfx (Base m), w).
Proof. reflexivity. Qed.

(* the range [pfx, PrefixEndBytes pfx) holds exactly the keys that carry the prefix *)
Lemma in_domain_is_prefix pfx k : wf_bytes pfx -> wf_bytes k ->
  in_domain k pfx (prefix_end_bytes pfx) = has_prefix pfx k.
Proof.
  intros Wp Wk. apply eq_true_iff_eq. unfold in_domain.
  rewrite andb_true_iff, (prefix_end_bytes_spec pfx k Wp Wk).
  destruct (prefix_end_bytes pfx); tauto.
Qed.
