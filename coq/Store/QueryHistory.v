(* C14 over whole histories of the multistore: once a height h has been committed, a query at h answers with
   the value committed at h or with "no such version" (after pruning released it) — never with data of another
   height — whatever is written, deleted, committed or re-configured afterwards, for any number of substores.
   C12 in the same setting: a height that none of the pruning policies in force along the history releases stays
   readable with exactly its committed content. *)
From Coq Require Import List ZArith Lia.
From PM Require Import Base.Bytes Store.KV Store.RootMulti Store.RootMultiProofs.
Import ListNotations.
Local Open Scope Z_scope.

Inductive mop :=
| MSet (n k v : bytes) | MDelete (n k : bytes) | MTSet (n k v : bytes) | MSetPruning (p : prune) | MCommit.
Definition mstep (ms : mstore) (o : mop) : option mstore :=
  match o with
  | MSet n k v => Some (ms_set ms n k v)
  | MDelete n k => Some (ms_delete ms n k)
  | MTSet n k v => Some (ms_tset ms n k v)
  | MSetPruning p => Some (ms_set_pruning ms p)
  | MCommit => match commit ms None with Some (ms', _) => Some ms' | None => None end
  end.
Fixpoint mrun (ops : list mop) (ms : mstore) : option mstore :=
  match ops with [] => Some ms | o :: r => match mstep ms o with Some ms' => mrun r ms' | None => None end end.

(* what height h of one substore may look like from the moment it was committed with content c *)
Definition frozen (h : Z) (c : kv) (t : tree) : Prop :=
  h <= t_ver t /\ (vget (t_disk t) h = Some c \/ vget (t_disk t) h = None).
(* every substore, with the content ITS version h was committed with *)
Definition all_frozen (h : Z) (cs : list (bytes * kv)) (ts : list (bytes * tree)) : Prop :=
  map fst ts = map fst cs /\ forall n t c, In ((n, t), (n, c)) (combine ts cs) -> frozen h c t.

(* [all_frozen] and [all_kept] below say the same thing of two predicates: the names agree and the predicate holds
   position by position *)
Definition paired (R : kv -> tree -> Prop) (cs : list (bytes * kv)) (ts : list (bytes * tree)) : Prop :=
  Forall2 (fun nt nc => fst nt = fst nc /\ R (snd nc) (snd nt)) ts cs.
Section Paired.
Variable R : kv -> tree -> Prop.
Lemma paired_iff cs ts :
  map fst ts = map fst cs /\ (forall n t c, In ((n, t), (n, c)) (combine ts cs) -> R c t) <-> paired R cs ts.
Proof.
  unfold paired. split.
  - revert cs. induction ts as [|[n t] ts IH]; intros [|[n' c] cs] [Hn Hf]; try discriminate; constructor.
    + cbn [map fst] in Hn. injection Hn as -> _. split; [reflexivity|]. apply (Hf n'). left. reflexivity.
    + cbn [map] in Hn. injection Hn as _ Hn. apply IH. split; [exact Hn|]. intros m u d I. apply (Hf m). right. exact I.
  - induction 1 as [|[n t] [n' c] ts cs [En Hr] P [Hn Hf]]; [split; [reflexivity|intros ? ? ? []]|].
    cbn [fst snd] in En, Hr. subst n'. split; [cbn [map fst]; congruence|].
    intros m u d [E|I]; [inversion E; subst; exact Hr|exact (Hf m u d I)].
Qed.

Lemma paired_step (S : tree -> tree -> Prop) cs ts ts' : (forall c t t', S t t' -> R c t -> R c t') ->
  Forall2 (fun a b => fst a = fst b /\ S (snd a) (snd b)) ts ts' -> paired R cs ts -> paired R cs ts'.
Proof.
  intros H F. revert cs. induction F as [|a b ts ts' [En Hs] F IH]; intros cs P; inversion P as [|? c ? cs' [Ec Hr] P']; subst;
    constructor.
  - split; [congruence|eauto].
  - apply IH. exact P'.
Qed.
Lemma paired_upd_tree cs name f : (forall c t t', t_disk t' = t_disk t -> t_ver t' = t_ver t -> R c t -> R c t') ->
  forall ts, paired R cs ts -> paired R cs (upd_tree ts name f).
Proof.
  intros H ts P. induction P as [|[n t] c ts cs [En Hr] P IH]; cbn [upd_tree]; [constructor|].
  destruct (beqb n name); constructor; auto. split; [exact En|]. apply (H _ t); auto.
Qed.
(* lookup by name runs in step on both lists *)
Lemma paired_find cs ts name : paired R cs ts ->
  match find (fun p => beqb (fst p) name) ts, find (fun p => beqb (fst p) name) cs with
  | Some (n, t), Some (n', c) => n = name /\ n' = name /\ R c t
  | None, None => True
  | _, _ => False
  end.
Proof.
  induction 1 as [|[n t] [n' c] ts cs [En Hr] P IH]; cbn [find fst snd] in *; [exact I|]. subst n'.
  destruct (beqb n name) eqn:B; [apply beqb_eq in B; auto|exact IH].
Qed.
(* one step of a history preserves whatever writes to the working tree and substore commits preserve *)
Lemma mstep_paired cs ms o ms' :
  (forall c t t', t_disk t' = t_disk t -> t_ver t' = t_ver t -> R c t -> R c t') ->
  (forall c t tf, (exists units, store_commit (ms_prune ms) t = Some (tf, units)) -> R c t -> R c tf) ->
  mstep ms o = Some ms' -> paired R cs (ms_trees ms) -> paired R cs (ms_trees ms').
Proof.
  intros Hw Hc E P. destruct o; cbn [mstep] in E;
    try (injection E as <-; cbn [ms_trees ms_set ms_delete ms_tset ms_set_pruning]; auto using paired_upd_tree).
  destruct (commit ms None) as [[ms1 cr]|] eqn:Ec; [|discriminate]. injection E as <-.
  destruct (commit_all _ _ _ Ec) as (_ & _ & _ & _ & _ & F).
  exact (paired_step _ cs _ _ Hc F P).
Qed.
End Paired.
Lemma mstep_prune ms o ms' : mstep ms o = Some ms' ->
  ms_prune ms' = match o with MSetPruning p => p | _ => ms_prune ms end.
Proof.
  destruct o; cbn [mstep]; try (intros [= <-]; reflexivity).
  destruct (commit ms None) as [[ms1 cr]|] eqn:Ec; [|discriminate]. intros [= <-]. apply (commit_all _ _ _ Ec).
Qed.

Lemma store_commit_frozen p t tf units h c : store_commit p t = Some (tf, units) -> frozen h c t -> frozen h c tf.
Proof.
  intros E [Hle Hv]. destruct (store_commit_spec _ _ _ _ E) as (I & G & U). destruct (U tf I) as (V & _ & _ & D).
  split; [lia|]. destruct (to_release p (t_ver t + 1)) as [r|] eqn:Er.
  - destruct (Z.eq_dec r h) as [->|N]; [right; apply G; reflexivity|]. rewrite D; [exact Hv|lia|congruence].
  - rewrite D; [exact Hv|lia|discriminate].
Qed.
Theorem mrun_frozen h cs ops : forall ms ms', mrun ops ms = Some ms' -> all_frozen h cs (ms_trees ms) -> all_frozen h cs (ms_trees ms').
Proof.
  induction ops as [|o r IH]; intros ms ms' E F; [injection E as <-; exact F|].
  cbn [mrun] in E. destruct (mstep ms o) as [ms1|] eqn:E1; [|discriminate]. apply (IH _ _ E).
  apply paired_iff. apply paired_iff in F. revert E1 F. apply mstep_paired.
  - intros c t t' D V [Hle Hv]. split; congruence.
  - intros c t tf [units Ec]. exact (store_commit_frozen _ _ _ _ _ _ Ec).
Qed.

(* the content each substore has at the version a completed commit makes: its working tree *)
Definition committed_contents (ts : list (bytes * tree)) : list (bytes * kv) := map (fun p => (fst p, t_work (snd p))) ts.

(* C14: a query at h answers with the committed value or with "no such version", nothing else *)
Theorem query_after_any_history h cs ops ms ms' name key : h <> 0 ->
  all_frozen h cs (ms_trees ms) -> mrun ops ms = Some ms' ->
  match find (fun p => beqb (fst p) name) cs with
  | Some (_, c) => ms_query ms' name key h = QValue (aget c key) \/ ms_query ms' name key h = QNoVersion
  | None => ms_query ms' name key h = QNoStore
  end.
Proof.
  intros Hh F E. pose proof (paired_find _ _ _ name (proj1 (paired_iff _ _ _) (mrun_frozen h cs ops ms ms' E F))) as P.
  destruct (find _ (ms_trees ms')) as [[n t]|] eqn:Ef, (find _ cs) as [[n' c]|]; try contradiction.
  - destruct P as (-> & _ & [_ Hv]). rewrite (query_at_height _ _ _ _ _ Hh Ef).
    destruct Hv as [-> | ->]; auto.
  - unfold ms_query. rewrite Ef. reflexivity.
Qed.

(* non-vacuity of the premise: a store whose every substore has h on disk with its recorded content is frozen at h *)
Lemma all_frozen_intro h ts : (forall n t, In (n, t) ts -> h <= t_ver t) ->
  all_frozen h (map (fun p => (fst p, match vget (t_disk (snd p)) h with Some c => c | None => [] end)) ts) ts.
Proof.
  intros H. apply paired_iff. induction ts as [|[n t] r IH]; constructor.
  - cbn [fst snd]. split; [reflexivity|]. split; [apply (H n); left; reflexivity|]. destruct (vget (t_disk t) h); auto.
  - apply IH. intros n0 t0 I0. apply (H n0). right. exact I0.
Qed.

Definition never_releases (p : prune) (h : Z) : Prop := forall v, to_release p v <> Some h.
(* the policies a history runs under: the one in force and every one set later *)
Fixpoint policies_ok (h : Z) (p : prune) (ops : list mop) : Prop :=
  match ops with
  | [] => never_releases p h
  | MSetPruning p' :: r => never_releases p h /\ policies_ok h p' r
  | _ :: r => policies_ok h p r
  end.
Definition kept (h : Z) (c : kv) (t : tree) : Prop := h <= t_ver t /\ vget (t_disk t) h = Some c.
Definition all_kept (h : Z) (cs : list (bytes * kv)) (ts : list (bytes * tree)) : Prop :=
  map fst ts = map fst cs /\ forall n t c, In ((n, t), (n, c)) (combine ts cs) -> kept h c t.

Lemma store_commit_kept p t tf units h c : never_releases p h -> store_commit p t = Some (tf, units) -> kept h c t -> kept h c tf.
Proof.
  intros NR E [Hle Hv]. destruct (store_commit_spec _ _ _ _ E) as (I & _ & U). destruct (U tf I) as (V & _ & _ & D).
  split; [lia|]. rewrite D; [exact Hv|lia|apply NR].
Qed.
Lemma policies_ok_head h p ops : policies_ok h p ops -> never_releases p h.
Proof. induction ops as [|o r IH]; cbn [policies_ok]; [auto|]. destruct o; try exact IH. intros [A _]. exact A. Qed.
Theorem mrun_kept h cs ops : forall ms ms', policies_ok h (ms_prune ms) ops -> mrun ops ms = Some ms' ->
  all_kept h cs (ms_trees ms) -> all_kept h cs (ms_trees ms').
Proof.
  induction ops as [|o r IH]; intros ms ms' PO E K; [injection E as <-; exact K|].
  cbn [mrun] in E. destruct (mstep ms o) as [ms1|] eqn:E1; [|discriminate]. apply (IH _ _) in E.
  - exact E.
  - rewrite (mstep_prune _ _ _ E1). destruct o; cbn [policies_ok] in PO; tauto.
  - apply paired_iff. apply paired_iff in K. revert E1 K. apply mstep_paired.
    + intros c t t' D V [Hle Hv]. split; congruence.
    + intros c t tf [units Ec]. exact (store_commit_kept _ _ _ _ _ _ (policies_ok_head _ _ _ PO) Ec).
Qed.
(* C12: a query at a height the pruning policies retain answers with exactly the committed value, after any history *)
Theorem retained_version_stays_readable h cs ops ms ms' name key c : h <> 0 ->
  policies_ok h (ms_prune ms) ops -> all_kept h cs (ms_trees ms) -> mrun ops ms = Some ms' ->
  find (fun p => beqb (fst p) name) cs = Some (name, c) -> ms_query ms' name key h = QValue (aget c key).
Proof.
  intros Hh PO K E Fc. pose proof (paired_find _ _ _ name (proj1 (paired_iff _ _ _) (mrun_kept h cs ops ms ms' PO E K))) as P.
  rewrite Fc in P. destruct (find _ (ms_trees ms')) as [[n t]|] eqn:Ef; [|contradiction].
  destruct P as (-> & _ & [_ Hv]). rewrite (query_at_height _ _ _ _ _ Hh Ef), Hv. reflexivity.
Qed.
Lemma keep_every_1_never_releases kr h : never_releases {| keep_recent := kr; keep_every := 1 |} h.
Proof.
  intros v. unfold to_release. cbn [keep_recent keep_every]. destruct (kr <? v - 1); [|discriminate].
  cbn [Z.eqb orb]. rewrite Z.rem_1_r. cbn. discriminate.
Qed.
