(* C12 / C13 / C14 / C01 on the multistore model (Store/RootMulti.v): what a substore commit does to the set of versions on
   disk, that an interrupted commit can always be reopened at the old version when
   keepRecent >= 1 (and NOT when it is 0), that committed versions are immutable while they are
   retained, and that the commit hash does not depend on the order Go's map iteration happens
   to commit the substores in. *)
From Coq Require Import List ZArith Bool Lia Permutation.
From PM Require Import Base.Bytes Store.KV Store.MergeProofs Store.KVProofs Store.RootMulti.
Import ListNotations.
Local Open Scope Z_scope.

Lemma vget_vset {V} (m : list (Z * V)) v x u : vget (vset m v x) u = if u =? v then Some x else vget m u.
Proof.
  induction m as [|[v0 y] r IH]; simpl; [reflexivity|].
  destruct (Z.eqb_spec v v0) as [->|N]; simpl; [destruct (u =? v0); reflexivity|].
  destruct (v <? v0); simpl; [reflexivity|]. rewrite IH.
  destruct (Z.eqb_spec u v0) as [->|]; [|reflexivity]. destruct (Z.eqb_spec v0 v); [congruence|reflexivity].
Qed.
Lemma vget_vdel {V} (m : list (Z * V)) v u : vget (vdel m v) u = if u =? v then None else vget m u.
Proof.
  unfold vdel. induction m as [|[v0 y] r IH]; simpl; [destruct (u =? v); reflexivity|].
  destruct (Z.eqb_spec v0 v) as [->|N]; simpl; rewrite IH; [destruct (u =? v); reflexivity|].
  destruct (Z.eqb_spec u v0) as [->|]; [|reflexivity]. destruct (Z.eqb_spec v0 v); [contradiction|reflexivity].
Qed.

(* the loaded version is on disk with the content the working tree started from *)
Definition tree_ok (t : tree) (old : kv) : Prop := vget (t_disk t) (t_ver t) = Some old.

Lemma save_version_spec t t1 : save_version t = Some t1 ->
  t_ver t1 = t_ver t + 1 /\ t_work t1 = t_work t /\
  (forall u, u <> t_ver t + 1 -> vget (t_disk t1) u = vget (t_disk t) u) /\
  (vget (t_disk t) (t_ver t + 1) = None -> vget (t_disk t1) (t_ver t + 1) = Some (t_work t)).
Proof.
  unfold save_version. destruct (vget (t_disk t) (t_ver t + 1)) as [c|].
  - destruct (kv_eqb c (t_work t)); [|discriminate]. intros [= <-]. simpl. repeat split; auto. discriminate.
  - intros [= <-]. simpl. repeat split; auto.
    + intros u Hu. rewrite vget_vset. destruct (Z.eqb_spec u (t_ver t + 1)); [contradiction|reflexivity].
    + intros _. rewrite vget_vset, Z.eqb_refl. reflexivity.
Qed.
Lemma delete_version_ok t r t2 : delete_version t r = DelOk t2 ->
  r <> t_ver t /\ t_disk t2 = vdel (t_disk t) r /\ t_ver t2 = t_ver t /\ t_work t2 = t_work t.
Proof.
  unfold delete_version. destruct (negb (vhas (t_disk t) r)); [discriminate|].
  destruct (Z.eqb_spec r (t_ver t)); [discriminate|]. intros [= <-]. simpl. auto.
Qed.
Lemma delete_version_missing t r : delete_version t r = DelMissing -> vget (t_disk t) r = None.
Proof.
  unfold delete_version, vhas. destruct (vget (t_disk t) r); simpl; auto.
  destruct (r =? t_ver t); discriminate.
Qed.
Lemma to_release_lt p v r : to_release p v = Some r -> r = v - 1 - keep_recent p /\ keep_recent p < v - 1.
Proof.
  unfold to_release. destruct (Z.ltb_spec (keep_recent p) (v - 1)); [|discriminate].
  destruct (_ || _); [|discriminate]. intros [= <-]. lia.
Qed.
Lemma load_version_at d v c : v <> 0 -> vget d v = Some c -> load_version d v = Some {| t_disk := d; t_work := c; t_ver := v |}.
Proof. intros N E. unfold load_version. destruct (Z.eqb_spec v 0); [contradiction|]. rewrite E. reflexivity. Qed.

(* the one case analysis of store_commit (release or not, version to delete present or not): what the final tree
   and every write unit hold; delete_version refuses the version just saved, so no bound on keepRecent is needed *)
Lemma store_commit_spec p t tf units : store_commit p t = Some (tf, units) ->
  In tf units /\
  (forall r, to_release p (t_ver t + 1) = Some r -> vget (t_disk tf) r = None) /\
  forall u, In u units ->
    t_ver u = t_ver t + 1 /\ t_work u = t_work t /\
    (vget (t_disk t) (t_ver t + 1) = None -> vget (t_disk u) (t_ver t + 1) = Some (t_work t)) /\
    (forall h, h <> t_ver t + 1 -> to_release p (t_ver t + 1) <> Some h -> vget (t_disk u) h = vget (t_disk t) h).
Proof.
  unfold store_commit. destruct (save_version t) as [t1|] eqn:Es; [|discriminate].
  destruct (save_version_spec _ _ Es) as (V1 & W1 & D1 & N1). rewrite V1.
  destruct (to_release p (t_ver t + 1)) as [r|].
  - destruct (delete_version t1 r) as [t2| |] eqn:Ed; try discriminate; intros [= <- <-].
    + destruct (delete_version_ok _ _ _ Ed) as (Nr & Dd & Dv & Dw). rewrite V1 in Nr.
      split; [right; left; reflexivity|]. split.
      * intros ? [= <-]. rewrite Dd, vget_vdel, Z.eqb_refl. reflexivity.
      * intros u [<-|[<-|[]]]; [auto|]. rewrite Dd, Dv, Dw. repeat split; auto.
        -- intros F. rewrite vget_vdel. destruct (Z.eqb_spec (t_ver t + 1) r); [congruence|auto].
        -- intros h Hh Hr. rewrite vget_vdel. destruct (Z.eqb_spec h r); [congruence|auto].
    + split; [left; reflexivity|]. split; [intros ? [= <-]; apply delete_version_missing; exact Ed|].
      intros u [<-|[]]; auto.
  - intros [= <- <-]. split; [left; reflexivity|]. split; [discriminate|]. intros u [<-|[]]; auto.
Qed.

Lemma store_commit_old_version_stays p t old tf units u : 1 <= keep_recent p -> tree_ok t old ->
  store_commit p t = Some (tf, units) -> In u (t :: units) -> vget (t_disk u) (t_ver t) = Some old.
Proof.
  intros Hk Hok E [<-|Hu]; [exact Hok|].
  destruct (store_commit_spec _ _ _ _ E) as (_ & _ & U). destruct (U u Hu) as (_ & _ & _ & D).
  rewrite D; [exact Hok|lia|]. intros Er. apply to_release_lt in Er. lia.
Qed.
(* C13, one substore: after ANY prefix of the commit's write units the previous version can
   still be loaded with its old content, as long as at least one recent version is kept (for a tree at version 0
   there is no previous version and both sides are the same load) *)
Theorem store_commit_crash_safe p t old tf units : 1 <= keep_recent p -> tree_ok t old ->
  store_commit p t = Some (tf, units) ->
  forall u, In u (t :: units) -> load_version (t_disk u) (t_ver t) = (if t_ver t =? 0 then load_version (t_disk u) 0
                                                                       else Some {| t_disk := t_disk u; t_work := old; t_ver := t_ver t |}).
Proof.
  intros Hk Hok E u Hu. destruct (Z.eqb_spec (t_ver t) 0) as [E0|N0]; [rewrite E0; reflexivity|].
  apply load_version_at; [exact N0|]. eapply store_commit_old_version_stays; eauto.
Qed.

(* ... and with keepRecent = 0 it is false: the version the root still points at is deleted before the flush (F8) *)
Theorem store_commit_crash_unsafe_when_keep_recent_0 :
  exists p t old tf units, keep_recent p = 0 /\ tree_ok t old /\ store_commit p t = Some (tf, units) /\
    exists u, In u units /\ load_version (t_disk u) (t_ver t) = None.
Proof.
  exists {| keep_recent := 0; keep_every := 0 |},
         {| t_disk := [(1, [([1]%N, [1]%N)])]; t_work := [([1]%N, [2]%N)]; t_ver := 1 |}, [([1]%N, [1]%N)].
  eexists. eexists. split; [reflexivity|]. split; [reflexivity|]. split; [vm_compute; reflexivity|].
  eexists. split; [right; left; reflexivity|]. vm_compute. reflexivity.
Qed.

(* C12 / C14: a committed version that is neither the new one nor the released one is untouched by a commit *)
Theorem store_commit_keeps_other_versions p t tf units h : store_commit p t = Some (tf, units) ->
  h <> t_ver t + 1 -> to_release p (t_ver t + 1) <> Some h -> vget (t_disk tf) h = vget (t_disk t) h.
Proof. intros E. destruct (store_commit_spec _ _ _ _ E) as (I & _ & U). apply (U tf I). Qed.
Theorem store_commit_new_version p t tf units : vget (t_disk t) (t_ver t + 1) = None ->
  store_commit p t = Some (tf, units) ->
  t_ver tf = t_ver t + 1 /\ t_work tf = t_work t /\ vget (t_disk tf) (t_ver t + 1) = Some (t_work t).
Proof.
  intros Hfresh E. destruct (store_commit_spec _ _ _ _ E) as (I & _ & U). destruct (U tf I) as (V & W & N & _). auto.
Qed.
Theorem store_commit_released_gone p t tf units r : store_commit p t = Some (tf, units) ->
  to_release p (t_ver t + 1) = Some r -> vget (t_disk tf) r = None.
Proof. intros E. apply (store_commit_spec _ _ _ _ E). Qed.

(* C14: a query at a height answers from what the disk holds at that height (the value committed there, or
   "no such version" when it is pruned or still to come), whatever was written to the working tree since *)
Theorem query_at_height ms name key h t : h <> 0 ->
  find (fun p => beqb (fst p) name) (ms_trees ms) = Some (name, t) ->
  ms_query ms name key h = match vget (t_disk t) h with Some c => QValue (aget c key) | None => QNoVersion end.
Proof. intros Hh Ef. unfold ms_query. rewrite Ef. destruct (Z.eqb_spec h 0); [contradiction|reflexivity]. Qed.
Theorem working_writes_do_not_touch_disk ts name f n t : In (n, t) (upd_tree ts name f) ->
  exists t0, In (n, t0) ts /\ t_disk t = t_disk t0 /\ t_ver t = t_ver t0.
Proof.
  induction ts as [|[n0 t0] r IH]; simpl; [tauto|].
  destruct (beqb n0 name).
  - intros [E|H]; [inversion E; subst; exists t0; simpl; auto|exists t; auto].
  - intros [E|H]; [inversion E; subst; exists t; auto|]. destruct (IH H) as (t1 & I1 & D1). exists t1; auto.
Qed.

(* without a crash budget every substore is committed to the end *)
Lemma commit_trees_all p ts : forall ts' infos bl crashed, commit_trees p ts None = Some (ts', infos, bl, crashed) ->
  crashed = false /\ bl = None /\
  Forall2 (fun a b => fst a = fst b /\ exists units, store_commit p (snd a) = Some (snd b, units)) ts ts' /\
  infos = map (fun b => (fst b, (t_ver (snd b), t_work (snd b)))) ts'.
Proof.
  induction ts as [|[name t] r IH]; simpl; intros ts' infos bl crashed.
  - intros [= <- <- <- <-]. repeat split; constructor.
  - destruct (store_commit p t) as [[tfinal units]|] eqn:Ec; [|discriminate].
    destruct (commit_trees p r None) as [[[[r' infos'] bl'] crashed']|] eqn:Er; [|discriminate].
    destruct (IH _ _ _ _ eq_refl) as (-> & -> & F & ->). intros [= <- <- <- <-]. repeat split; auto.
    constructor; auto. split; auto. exists units; auto.
Qed.
(* ... and the root is flushed: the new version is the latest, recorded with the substores' commit ids *)
Lemma commit_all ms ms' crashed : commit ms None = Some (ms', crashed) ->
  let v := fst (ms_last ms) + 1 in
  let ci : cinfo := map (fun b => (fst b, (t_ver (snd b), t_work (snd b)))) (ms_trees ms') in
  crashed = false /\ ms_prune ms' = ms_prune ms /\ ms_latest ms' = v /\ ms_last ms' = (v, sort_infos ci) /\
  vget (ms_infos ms') v = Some ci /\
  Forall2 (fun a b => fst a = fst b /\ exists units, store_commit (ms_prune ms) (snd a) = Some (snd b, units))
          (ms_trees ms) (ms_trees ms').
Proof.
  unfold commit. destruct (commit_trees (ms_prune ms) (ms_trees ms) None) as [[[[ts infos] bl] cr]|] eqn:Ec; [|discriminate].
  destruct (commit_trees_all _ _ _ _ _ _ Ec) as (-> & -> & F & ->). intros [= <- <-]. cbn.
  rewrite vget_vset, Z.eqb_refl. auto 6.
Qed.

Definition names (l : cinfo) := map fst l.
Lemma insert_info_in x l y : In y (insert_info x l) <-> y = x \/ In y l.
Proof.
  induction l as [|z r IH]; simpl; [intuition|].
  destruct (bcompare (fst x) (fst z)); simpl; rewrite ?IH; intuition.
Qed.
Lemma insert_info_sorted x l : asorted l -> (forall y, In y l -> fst y <> fst x) -> asorted (insert_info x l).
Proof.
  induction l as [|z r IH]; simpl; intros S N; [split; [intros y []|auto]|].
  destruct S as [B S]. destruct (bcompare (fst x) (fst z)) eqn:C.
  - apply bcompare_eq in C. exfalso. apply (N z); auto.
  - simpl. split; [|split; auto]. intros y [<-|Hy]; auto. eapply bcompare_lt_trans; [exact C|apply B; exact Hy].
  - simpl. split.
    + intros y Hy. apply insert_info_in in Hy. destruct Hy as [->|Hy]; auto.
      rewrite bcompare_antisym, C. reflexivity.
    + apply IH; auto.
Qed.
Lemma sort_infos_sorted l : NoDup (names l) -> asorted (sort_infos l) /\ (forall y, In y (sort_infos l) <-> In y l).
Proof.
  induction l as [|x r IH]; simpl; intros ND; [split; [auto|tauto]|].
  inversion ND as [|? ? Hn ND']; subst. destruct (IH ND') as [S I]. split.
  - apply insert_info_sorted; auto. intros y Hy E. apply I in Hy. apply Hn. unfold names. rewrite <- E. apply in_map; auto.
  - intros y. rewrite insert_info_in, I. intuition.
Qed.
Lemma asorted_ext_in {V} (a b : list (bytes * V)) : asorted a -> asorted b -> (forall y, In y a <-> In y b) -> a = b.
Proof. intros Sa Sb E. apply (dsorted_ext true); auto. intros k. apply (assoc_same_in true true); auto. Qed.
(* C01: the commit hash does not depend on the order the substores are committed in *)
Theorem commit_hash_order_independent l l' : Permutation l l' -> NoDup (names l) -> sort_infos l = sort_infos l'.
Proof.
  intros Pm ND. assert (ND' : NoDup (names l')) by (eapply Permutation_NoDup; [apply Permutation_map; exact Pm|exact ND]).
  destruct (sort_infos_sorted l ND) as [S I]. destruct (sort_infos_sorted l' ND') as [S' I'].
  apply asorted_ext_in; auto. intros y. rewrite I, I'. split; apply Permutation_in; [|symmetry]; exact Pm.
Qed.
