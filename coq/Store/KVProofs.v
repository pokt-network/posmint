(* C15/C16: sorted-map lemmas, the cache store as an overlay (Get/Set/Delete/Write refine
   the plain sorted map), PrefixEndBytes, gas accounting. *)
From Coq Require Import List NArith Lia.
From PM Require Import Base.Bytes Store.KV Store.MergeProofs.
Import ListNotations.
Local Open Scope N_scope.

Notation asorted := (dsorted true).
Lemma cmp_true a b : cmp true a b = bcompare a b. Proof. reflexivity. Qed.

Section AMapLemmas.
  Context {V : Type}.
  Implicit Types m : amap V.
  Lemma aget_below m k : below true k m -> aget m k = None.
  Proof.
    destruct m as [|[k0 v0] r]; simpl; auto. intros B.
    pose proof (B (k0, v0) (or_introl eq_refl)) as L. simpl in L. rewrite L. reflexivity.
  Qed.
  Lemma aset_sorted m k v : asorted m -> asorted (aset m k v) /\
    (forall d, bcompare d k = Lt -> below true d m -> below true d (aset m k v)).
  Proof.
    induction m as [|[k0 v0] r IH]; simpl.
    - intros _. split; [split; [intros y []|auto]|]. intros d L _ y [<-|[]]; auto.
    - intros [B S]. destruct (bcompare_spec k k0) as [<-|L|G].
      + split; [split; auto|].
        intros d L Bd y [<-|Hy]; auto. apply Bd; right; auto.
      + split; [|intros d L' Bd y [<-|Hy]; auto].
        split; [|split; auto]. intros y [<-|Hy]; auto. apply (below_trans true k k0 r L B y Hy).
      + destruct (IH S) as [S' B']. split; [split; auto; apply B'; auto|].
        intros d L Bd y [<-|Hy]; [apply (Bd (k0, v0)); left; auto|].
        apply B'; auto. intros z Hz. apply Bd; right; auto.
  Qed.
  (* aset only inserts, so sortedness is not needed: the Lt shortcut of aget is met by transitivity *)
  Lemma aget_aset m k v k' : aget (aset m k v) k' = if beqb k k' then Some v else aget m k'.
  Proof.
    rewrite beqb_sym. unfold beqb.
    induction m as [|[k0 v0] r IH]; simpl.
    - destruct (bcompare k' k); reflexivity.
    - destruct (bcompare_spec k k0) as [<-|L|G]; simpl.
      + destruct (bcompare k' k); reflexivity.
      + destruct (bcompare k' k) eqn:C; try reflexivity. rewrite (bcompare_lt_trans _ _ _ C L). reflexivity.
      + destruct (bcompare_spec k' k0) as [->|L'|G']; auto.
        * rewrite G. reflexivity.
        * rewrite (bcompare_lt_trans _ _ _ L' G). reflexivity.
  Qed.
  Lemma aget_aset_same m k v : aget (aset m k v) k = Some v.
  Proof. rewrite aget_aset, beqb_refl. reflexivity. Qed.
  Lemma adel_sorted m k : asorted m -> asorted (adel m k) /\ (forall d, below true d m -> below true d (adel m k)).
  Proof.
    induction m as [|[k0 v0] r IH]; simpl; auto. intros [B S].
    destruct (bcompare k k0) eqn:C.
    - split; auto. intros d Bd y Hy. apply Bd; right; auto.
    - split; [split; auto|auto].
    - destruct (IH S) as [S' B']. split; [split; auto; apply (B' k0); exact B|].
      intros d Bd y [<-|Hy]; [apply Bd; left; auto|]. apply B'; auto. intros z Hz; apply Bd; right; auto.
  Qed.
  Lemma aget_adel m k k' : asorted m -> aget (adel m k) k' = if beqb k k' then None else aget m k'.
  Proof.
    rewrite beqb_sym. unfold beqb.
    induction m as [|[k0 v0] r IH]; simpl; intros S.
    - destruct (bcompare k' k); reflexivity.
    - destruct S as [B S]. destruct (bcompare_spec k k0) as [<-|L|G]; simpl.
      + destruct (bcompare_spec k' k) as [->|L'|G']; auto; apply aget_below; auto.
        apply (below_trans true _ k); auto.
      + destruct (bcompare_spec k' k) as [->|L'|G']; auto. rewrite L. reflexivity.
      + destruct (bcompare_spec k' k0) as [->|L'|G']; auto.
        * rewrite G. reflexivity.
        * rewrite (bcompare_lt_trans _ _ _ L' G). reflexivity.
  Qed.
  Lemma aget_assoc m k : asorted m -> aget m k = assoc m k.
  Proof.
    induction m as [|[k0 v0] r IH]; simpl; auto. intros S. destruct (bcompare_spec k k0) as [->|L|G].
    - rewrite beqb_refl. reflexivity.
    - symmetry. apply (assoc_below true k ((k0, v0) :: r)), below_cons; auto.
    - destruct (lt_neq true _ _ G) as [-> _]. apply IH, S.
  Qed.
  Lemma amap_ext (a b : amap V) : asorted a -> asorted b -> (forall k, aget a k = aget b k) -> a = b.
  Proof.
    intros Sa Sb E. apply (dsorted_ext true); auto. intros k. rewrite <- !aget_assoc by auto. apply E.
  Qed.
  Lemma sorted_keys_nodup m : asorted m -> NoDup (map fst m).
  Proof.
    induction m as [|[k v] r IH]; simpl; intros S; [constructor|]. destruct S as [B S]. constructor; auto.
    intros Hin. apply in_map_iff in Hin. destruct Hin as ([k' v'] & Ek & Hin). simpl in Ek. subst k'.
    pose proof (B (k, v') Hin) as L. simpl in L. rewrite bcompare_refl in L. discriminate.
  Qed.
  Lemma aget_in m k v : aget m k = Some v -> In (k, v) m.
  Proof.
    induction m as [|[k0 v0] r IH]; simpl; [discriminate|]. destruct (bcompare k k0) eqn:C; try discriminate; [|auto].
    apply bcompare_eq in C; subst. intros [= ->]; auto.
  Qed.
  Lemma in_aget m k v : asorted m -> In (k, v) m -> aget m k = Some v.
  Proof. intros S. rewrite aget_assoc by exact S. apply (assoc_in true), S. Qed.
  Lemma in_aset m a v k x : In (k, x) (aset m a v) -> (k = a /\ x = v) \/ In (k, x) m.
  Proof.
    induction m as [|[k0 v0] m IH]; cbn [aset].
    - intros [E|[]]. injection E as <- <-. left; auto.
    - destruct (bcompare a k0) eqn:C.
      + intros [E|I]; [injection E as <- <-; left; auto|right; right; exact I].
      + intros [E|I]; [injection E as <- <-; left; auto|right; exact I].
      + intros [E|I]; [right; left; exact E|]. destruct (IH I) as [L|R]; [left; exact L|right; right; exact R].
  Qed.
  Lemma aset_aset_same m k v v' : aset (aset m k v) k v' = aset m k v'.
  Proof.
    induction m as [|[k0 v0] r IH]; simpl; [rewrite bcompare_refl; reflexivity|].
    destruct (bcompare k k0) eqn:C; simpl.
    - rewrite bcompare_refl. reflexivity.
    - rewrite bcompare_refl. reflexivity.
    - rewrite C, IH. reflexivity.
  Qed.
  Lemma filter_sorted (f : bytes * V -> bool) m : asorted m -> asorted (filter f m).
  Proof.
    induction m as [|x r IH]; simpl; auto. intros [B S]. destruct (f x); [|apply IH; auto].
    split; [|apply IH; auto]. intros y Hy. apply filter_In in Hy. apply B. tauto.
  Qed.
End AMapLemmas.

(* what Write does to a plain map *)
Fixpoint apply_entries (es : amap centry) (m : kv) : kv :=
  match es with
  | [] => m
  | (k, e) :: r =>
    if ce_dirty e then
      if ce_deleted e then apply_entries r (adel m k)
      else match ce_val e with None => apply_entries r m | Some v => apply_entries r (aset m k v) end
    else apply_entries r m
  end.
(* a clean entry mirrors the parent, a deleted entry holds no value, a dirty live entry holds one *)
Definition view (c : cstate) (m : kv) (k : bytes) : option bytes :=
  match aget (c_cache c) k with Some e => ce_val e | None => aget m k end.
Definition entry_ok (m : kv) (k : bytes) (e : centry) : Prop :=
  (ce_dirty e = false -> ce_val e = aget m k /\ ce_deleted e = false) /\
  (ce_deleted e = true -> ce_val e = None) /\
  (ce_dirty e = true -> ce_deleted e = false -> ce_val e <> None).
Definition cache_ok (c : cstate) (m : kv) : Prop :=
  asorted (c_cache c) /\ forall k e, aget (c_cache c) k = Some e -> entry_ok m k e.

(* what a reader sees through entry e when the parent holds x *)
Definition entry_over (e : centry) (x : option bytes) : option bytes :=
  if ce_dirty e then if ce_deleted e then None else match ce_val e with Some v => Some v | None => x end else x.

Lemma apply_entries_cons k e r m : apply_entries ((k, e) :: r) m = apply_entries r (apply_entries [(k, e)] m).
Proof. simpl. destruct (ce_dirty e), (ce_deleted e), (ce_val e); reflexivity. Qed.
Lemma apply_entry_spec k e m : asorted m ->
  asorted (apply_entries [(k, e)] m) /\
  forall k', aget (apply_entries [(k, e)] m) k' = if beqb k k' then entry_over e (aget m k') else aget m k'.
Proof.
  intros S. unfold entry_over. simpl. destruct (ce_dirty e); [destruct (ce_deleted e); [|destruct (ce_val e)]|].
  - split; [apply adel_sorted; auto|intros; apply aget_adel; auto].
  - split; [apply aset_sorted; auto|intros; apply aget_aset; auto].
  - split; auto. intros k'. destruct (beqb k k'); reflexivity.
  - split; auto. intros k'. destruct (beqb k k'); reflexivity.
Qed.
Lemma apply_entries_sorted es : forall m, asorted m -> asorted (apply_entries es m).
Proof.
  induction es as [|[k e] r IH]; intros m S; [exact S|].
  rewrite apply_entries_cons. apply IH, apply_entry_spec, S.
Qed.
Lemma apply_entries_get es : forall m k, asorted es -> asorted m ->
  aget (apply_entries es m) k = match aget es k with Some e => entry_over e (aget m k) | None => aget m k end.
Proof.
  induction es as [|[k0 e] r IH]; intros m k S Sm; [reflexivity|]. destruct S as [B S].
  destruct (apply_entry_spec k0 e m Sm) as [S1 G1].
  rewrite apply_entries_cons, IH, G1 by auto. simpl aget.
  (* the entries of r have keys above k0 *)
  destruct (bcompare_spec k k0) as [->|L|G].
  - rewrite aget_below, beqb_refl by exact B. reflexivity.
  - rewrite aget_below by exact (below_trans true _ _ _ L B).
    destruct (lt_neq true _ _ L) as [_ ->]. reflexivity.
  - destruct (lt_neq true _ _ G) as [-> _]. reflexivity.
Qed.

(* C15: the logical content of a cache store over a parent with content m *)
Definition cache_abs (c : cstate) (m : kv) : kv := apply_entries (c_cache c) m.
Theorem cache_abs_view c m k : cache_ok c m -> asorted m -> aget (cache_abs c m) k = view c m k.
Proof.
  intros [S OK] Sm. unfold cache_abs, view. rewrite apply_entries_get by auto.
  destruct (aget (c_cache c) k) as [e|] eqn:E; auto.
  destruct (OK k e E) as (Cl & Dl & Nn). unfold entry_over. destruct (ce_dirty e).
  - destruct (ce_deleted e); [rewrite Dl; auto|]. destruct (ce_val e); auto.
    exfalso; apply Nn; auto.
  - destruct (Cl eq_refl) as [-> _]. reflexivity.
Qed.
Lemma cache_abs_sorted c m : asorted m -> asorted (cache_abs c m).
Proof. apply apply_entries_sorted. Qed.

(* nests of cache stores over a MemDB-backed base: [abs] is the content seen through the nest, [nest_ok] holds of such
   nests only (False of the prefix, gas and trace wrappers, whose theorems are stated on their own) *)
Fixpoint abs (s : store) : kv :=
  match s with
  | Base m => m
  | Cache c p => cache_abs c (abs p)
  | Prefix _ p => abs p | Gas p => abs p | Trace p => abs p
  end.
Fixpoint nest_ok (s : store) : Prop :=
  match s with
  | Base m => asorted m
  | Cache c p => nest_ok p /\ cache_ok c (abs p)
  | _ => False
  end.
Lemma abs_sorted s : nest_ok s -> asorted (abs s).
Proof. induction s; simpl; try tauto. intros [N _]. apply cache_abs_sorted; auto. Qed.

Lemma set_cache_value_ok c m k v del dirty :
  cache_ok c m -> entry_ok m k {| ce_val := v; ce_deleted := del; ce_dirty := dirty |} ->
  cache_ok (set_cache_value c k v del dirty) m.
Proof.
  intros [S OK] EO. split; simpl.
  - apply aset_sorted; auto.
  - intros k' e'. rewrite aget_aset. destruct (beqb k k') eqn:E.
    + apply beqb_eq in E; subst. intros [= <-]. auto.
    + apply OK.
Qed.
Lemma view_set_cache_value c m k v del dirty k' :
  view (set_cache_value c k v del dirty) m k' = if beqb k k' then v else view c m k'.
Proof. unfold view. simpl. rewrite aget_aset. destruct (beqb k k'); auto. Qed.

(* every cache write goes through setCacheValue: the new content is the old one with k remapped to v *)
Lemma set_cache_value_abs c m k v del dirty m' :
  cache_ok c m -> asorted m -> entry_ok m k {| ce_val := v; ce_deleted := del; ce_dirty := dirty |} ->
  asorted m' -> (forall k', aget m' k' = if beqb k k' then v else aget (cache_abs c m) k') ->
  cache_ok (set_cache_value c k v del dirty) m /\ cache_abs (set_cache_value c k v del dirty) m = m'.
Proof.
  intros OK Sm EO Sm' G. pose proof (set_cache_value_ok c m k v del dirty OK EO) as OK'. split; auto.
  apply amap_ext; auto using cache_abs_sorted.
  intros k'. rewrite G, !cache_abs_view by auto. apply view_set_cache_value.
Qed.

(* C15: Get on a nest returns the overlay view and changes nothing observable *)
Theorem get_refines s : forall k w, nest_ok s ->
  exists s', s_get s k w = (Ok (aget (abs s) k), s', w) /\ nest_ok s' /\ abs s' = abs s.
Proof.
  induction s as [m|c p IH|? ? _|? _|? _]; intros k w N; simpl in N; try contradiction.
  - exists (Base m). simpl. auto.
  - destruct N as [Np OK]. simpl s_get. pose proof (abs_sorted p Np) as Sp.
    pose proof (cache_abs_view c (abs p) k OK Sp) as V. unfold view in V.
    destruct (aget (c_cache c) k) as [e|] eqn:E.
    + exists (Cache c p). simpl. rewrite V. split; [reflexivity|split; [split; assumption|reflexivity]].
    + (* a miss is read from the parent and cached clean *)
      destruct (IH k w Np) as (p' & -> & Np' & Ap).
      destruct (set_cache_value_abs c (abs p) k (aget (abs p) k) false false (cache_abs c (abs p))) as [OK' A];
        auto using cache_abs_sorted.
      { repeat split; simpl; auto; discriminate. }
      { intros k'. destruct (beqb k k') eqn:Ek; auto. apply beqb_eq in Ek; subst. auto. }
      exists (Cache (set_cache_value c k (aget (abs p) k) false false) p'). simpl. rewrite V, Ap. auto.
Qed.

(* C15: Set / Delete act on the view like the plain map operation and leave the parent alone *)
Theorem set_refines s : forall k v w, nest_ok s ->
  exists s', s_set s k v w = (Ok tt, s', w) /\ nest_ok s' /\ abs s' = aset (abs s) k v /\
    match s, s' with Cache _ p, Cache _ p' => p' = p | _, _ => True end.
Proof.
  destruct s as [m|c p|? ?|?|?]; intros k v w N; simpl in N; try contradiction.
  - exists (Base (aset m k v)). simpl. repeat split; auto. apply aset_sorted; auto.
  - destruct N as [Np OK]. pose proof (abs_sorted p Np) as Sp.
    destruct (set_cache_value_abs c (abs p) k (Some v) false true (aset (cache_abs c (abs p)) k v)) as [OK' A]; auto.
    { repeat split; simpl; auto; discriminate. }
    { apply aset_sorted, cache_abs_sorted, Sp. }
    { intros k'. apply aget_aset. }
    exists (Cache (set_cache_value c k (Some v) false true) p). simpl. auto.
Qed.
Theorem delete_refines s : forall k w, nest_ok s ->
  exists s', s_delete s k w = (Ok tt, s', w) /\ nest_ok s' /\ abs s' = adel (abs s) k /\
    match s, s' with Cache _ p, Cache _ p' => p' = p | _, _ => True end.
Proof.
  destruct s as [m|c p|? ?|?|?]; intros k w N; simpl in N; try contradiction.
  - exists (Base (adel m k)). simpl. repeat split; auto. apply adel_sorted; auto.
  - destruct N as [Np OK]. pose proof (abs_sorted p Np) as Sp.
    destruct (set_cache_value_abs c (abs p) k None true true (adel (cache_abs c (abs p)) k)) as [OK' A]; auto.
    { repeat split; simpl; auto; discriminate. }
    { apply adel_sorted, cache_abs_sorted, Sp. }
    { intros k'. apply aget_adel, cache_abs_sorted, Sp. }
    exists (Cache (set_cache_value c k None true true) p). simpl. auto.
Qed.

(* C15: Write makes the parent hold exactly the overlaid view and leaves the wrapper clean *)
Lemma write_entries_refines es : forall p w, nest_ok p ->
  exists p', write_entries es p w = (Ok tt, p', w) /\ nest_ok p' /\ abs p' = apply_entries es (abs p).
Proof.
  induction es as [|[k e] r IH]; intros p w N; simpl.
  - exists p; auto.
  - destruct (ce_dirty e); [|apply IH; auto]. destruct (ce_deleted e).
    + destruct (delete_refines p k w N) as (p1 & E1 & N1 & A1 & _). rewrite E1.
      destruct (IH p1 w N1) as (p2 & E2 & N2 & A2). exists p2. rewrite E2, A2, A1. auto.
    + destruct (ce_val e) as [v|]; [|apply IH; auto].
      destruct (set_refines p k v w N) as (p1 & E1 & N1 & A1 & _). rewrite E1.
      destruct (IH p1 w N1) as (p2 & E2 & N2 & A2). exists p2. rewrite E2, A2, A1. auto.
Qed.
Theorem write_refines c p w : nest_ok (Cache c p) ->
  exists p', c_write (Cache c p) w = (Ok tt, Cache c_empty p', w) /\ nest_ok (Cache c_empty p') /\
    abs p' = abs (Cache c p) /\ abs (Cache c_empty p') = abs (Cache c p).
Proof.
  intros [Np OK]. destruct (write_entries_refines (c_cache c) p w Np) as (p' & E & N' & A).
  exists p'. simpl c_write. rewrite E. split; auto. split.
  - simpl. split; auto. split; [simpl; auto|]. intros k e H; discriminate.
  - split; auto.
Qed.
(* a Set on a cache layer leaves the parent component alone (so does Delete: fourth conjunct of delete_refines), which
   is why dropping the layer without Write undoes them *)
Theorem discard_no_effect c p k v w s' : s_set (Cache c p) k v w = (Ok tt, s', w) ->
  exists c', s' = Cache c' p.
Proof. simpl. intros [= <-]. eauto. Qed.

Definition gas_ok (w : world) : Prop := w_consumed w <= max_u64.
(* C16: ConsumeGas on a meter: exact sum, out-of-gas exactly when the total crosses the limit,
   overflow reported (never wrapped) *)
Theorem consume_spec amount w : gas_ok w -> amount <= max_u64 ->
  let total := w_consumed w + amount in
  match consume amount w with
  | (Ok _, w') => total <= max_u64 /\ w_consumed w' = total /\
                  match w_limit w with Some lim => total <= lim | None => True end
  | (Panic POutOfGas, w') => total <= max_u64 /\ w_consumed w' = total /\
                  exists lim, w_limit w = Some lim /\ lim < total
  | (Panic PGasOverflow, w') => max_u64 < total
  | (Panic _, _) => False
  end.
Proof.
  intros G A. unfold gas_ok in G. unfold consume. cbv zeta.
  destruct (N.ltb_spec (max_u64 - w_consumed w) amount) as [H|H].
  - lia.
  - destruct (w_limit w) as [lim|] eqn:L; simpl.
    + destruct (N.ltb_spec lim (w_consumed w + amount)); simpl; repeat split; try lia. exists lim; split; [reflexivity|lia].
    + repeat split; lia.
Qed.
Lemma consume_trace amount w : w_trace (snd (consume amount w)) = w_trace w /\ w_limit (snd (consume amount w)) = w_limit w.
Proof.
  unfold consume. destruct (max_u64 - w_consumed w <? amount); [simpl; auto|].
  destruct (w_limit w) as [lim|] eqn:L; [|simpl; auto].
  destruct (lim <? w_consumed w + amount); simpl; auto.
Qed.

(* simpl below must leave x ?= y, x =? y and x + 1 folded, for the rewrites that follow it *)
Local Arguments N.compare : simpl never.
Local Arguments N.eqb : simpl never.
Local Arguments N.add : simpl never.
Lemma bcompare_app q a b : bcompare (q ++ a) (q ++ b) = bcompare a b.
Proof. induction q as [|x q IH]; simpl; auto. rewrite N.compare_refl. auto. Qed.
Lemma has_prefix_app_same q p k : has_prefix (q ++ p) (q ++ k) = has_prefix p k.
Proof. induction q as [|x q IH]; simpl; auto. rewrite N.eqb_refl. auto. Qed.

Lemma bleb_bltb a b : bleb a b = negb (bltb b a).
Proof. unfold bleb, bltb. rewrite (bcompare_antisym a b). destruct (bcompare a b); reflexivity. Qed.

(* PrefixEndBytes works from the last byte, the comparison of keys from the first. The same function
   by recursion from the front, so that the induction on the prefix in prefix_end_bytes_spec follows
   bcompare: the end of x :: p is x :: (the end of p) when p has one, otherwise [x + 1], unless x
   is 0xFF too *)
Fixpoint prefix_end_front (p : bytes) : option bytes :=
  match p with
  | [] => None
  | x :: p' => match prefix_end_front p' with
               | Some e => Some (x :: e)
               | None => if x =? 255 then None else Some [x + 1]
               end
  end.
Lemma prefix_end_rev_snoc r x : prefix_end_rev (r ++ [x]) =
  match prefix_end_rev r with Some e => Some (e ++ [x]) | None => if x =? 255 then None else Some [x + 1] end.
Proof. induction r as [|y r IH]; simpl; auto. destruct (y =? 255); auto. Qed.
Lemma prefix_end_bytes_front p : prefix_end_bytes p = prefix_end_front p.
Proof.
  transitivity (option_map (@rev _) (prefix_end_rev (rev p))); [destruct p; reflexivity|].
  induction p as [|x p IH]; simpl; auto. rewrite prefix_end_rev_snoc, <- IH.
  destruct (prefix_end_rev (rev p)); simpl; [rewrite rev_unit; reflexivity|]. destruct (x =? 255); reflexivity.
Qed.

(* C16: the keys a prefix store can reach are exactly [prefix, PrefixEndBytes(prefix)) *)
Theorem prefix_end_bytes_spec p k : wf_bytes p -> wf_bytes k ->
  (has_prefix p k = true <->
   bleb p k = true /\ match prefix_end_bytes p with None => True | Some e => bltb k e = true end).
Proof.
  intros Wp Wk. rewrite prefix_end_bytes_front. revert k Wk.
  induction Wp as [|x p Hx Wp IH]; intros k Wk.
  - destruct k; simpl; tauto.
  - destruct Wk as [|y k Hy Wk]; [unfold bleb; simpl; split; [discriminate|intros [H _]; discriminate]|].
    specialize (IH k Wk). unfold bleb, bltb in *. simpl.
    destruct (N.compare_spec x y) as [<-|L|G].
    + (* same first byte: the question passes to the tails *)
      rewrite N.eqb_refl. simpl. destruct (prefix_end_front p) as [e|]; simpl.
      * rewrite N.compare_refl. exact IH.
      * destruct (x =? 255); [exact IH|]. simpl.
        rewrite (proj2 (N.compare_lt_iff x (x + 1))) by lia. tauto.
    + (* x < y: k is above the prefix, and not below its end *)
      rewrite (proj2 (N.eqb_neq x y)) by lia. simpl. split; [discriminate|intros [_ H]; exfalso].
      destruct (prefix_end_front p) as [e|]; simpl in H.
      * rewrite (proj2 (N.compare_gt_iff y x)) in H by lia. discriminate.
      * destruct (N.eqb_spec x 255); [lia|]. simpl in H.
        destruct (N.compare_spec y (x + 1)); [destruct k|lia|]; discriminate.
    + rewrite (proj2 (N.eqb_neq x y)) by lia. simpl. split; [discriminate|intros [H _]; discriminate].
Qed.

Definition free_world (w : world) : Prop := w_limit w = None /\ w_consumed w + 1000000000000 <= max_u64.
(* C16: a Get that succeeds through a gas store returns exactly what the wrapped store returns *)
Theorem gas_get_transparent p k w r p' w' :
  s_get (Gas p) k w = (Ok r, p', w') ->
  exists w1 p1 w2, consume (g_read_flat (w_cfg w)) w = (Ok tt, w1) /\ s_get p k w1 = (Ok r, p1, w2) /\ p' = Gas p1.
Proof.
  simpl. destruct (consume (g_read_flat (w_cfg w)) w) as [[[]|x] w1] eqn:E1; [|discriminate].
  destruct (s_get p k w1) as [[[v|x] p1] w2] eqn:E2; [|discriminate].
  destruct (consume _ w2) as [[[]|x] w3] eqn:E3; [|discriminate].
  intros [= <- <- <-]. eauto 10.
Qed.
Theorem trace_get_logs p k w r p' w' :
  s_get (Trace p) k w = (Ok r, p', w') ->
  exists p1 w1, s_get p k w = (Ok r, p1, w1) /\ p' = Trace p1 /\
    w_trace w' = (1, k, match r with Some x => x | None => [] end) :: w_trace w1.
Proof.
  simpl. destruct (s_get p k w) as [[[v|x] p1] w1] eqn:E; [|discriminate].
  intros [= <- <- <-]. exists p1, w1. auto.
Qed.
