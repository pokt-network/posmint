(* C13 and C12 for the WHOLE multistore, any number of substores.
   C13: if at least one recent version is kept, then after a crash at ANY point of rootmulti.Commit (any number of
   write units of any substore reached the disk, the root's own flush did not) reopening the store gives exactly
   what reopening it before the commit would have given: every substore at the old version with its old content.
   C12: reopening after a commit that ran to the end gives every substore at the new version with the content of its
   working tree, and the commit id that Commit reported. *)
From Coq Require Import List ZArith Bool Lia.
From PM Require Import Base.Bytes Store.KV Store.RootMulti Store.RootMultiProofs.
Import ListNotations.
Local Open Scope Z_scope.

(* what a commit (complete or cut short) may leave of one substore *)
Definition tree_after (p : prune) (t u : tree) : Prop :=
  u = t \/ exists tf units, store_commit p t = Some (tf, units) /\ In u units.
Lemma commit_trees_shape p ts : forall budget ts' infos bl crashed,
  commit_trees p ts budget = Some (ts', infos, bl, crashed) ->
  Forall2 (fun a b => fst a = fst b /\ tree_after p (snd a) (snd b)) ts ts'.
Proof.
  induction ts as [|[name t] r IH]; simpl; intros budget ts' infos bl crashed.
  - intros [= <- _ _ _]. constructor.
  - destruct (store_commit p t) as [[tfinal units]|] eqn:Ec; [|discriminate].
    pose proof (proj1 (store_commit_spec _ _ _ _ Ec)) as Hf.
    assert (Refl : forall l : list (bytes * tree), Forall2 (fun a b => fst a = fst b /\ tree_after p (snd a) (snd b)) l l).
    { induction l as [|x l IHl]; constructor; auto. split; auto. left; auto. }
    destruct budget as [b|].
    + destruct (Nat.ltb b (length units)) eqn:Lb.
      * intros [= <- _ _ _]. constructor; [|apply Refl]. split; auto. cbn [snd].
        destruct b as [|b']; [left; auto|]. right. exists tfinal, units. split; auto.
        apply Nat.ltb_lt in Lb. apply nth_In. lia.
      * destruct (commit_trees p r (Some (b - length units)%nat)) as [[[[r' infos'] bl'] crashed']|] eqn:Er; [|discriminate].
        intros [= <- _ _ _]. constructor; [|eapply IH; eauto]. split; auto. right. exists tfinal, units. auto.
    + destruct (commit_trees p r None) as [[[[r' infos'] bl'] crashed']|] eqn:Er; [|discriminate].
      intros [= <- _ _ _]. constructor; [|eapply IH; eauto]. split; auto. right. exists tfinal, units. auto.
Qed.

(* the store as the root's commit info describes it *)
Definition target_of (ci : cinfo) (name : bytes) : Z :=
  match find (fun p => beqb (fst p) name) ci with Some p => fst (snd p) | None => 0 end.
Definition consistent (ms : mstore) (ci : cinfo) (olds : list kv) : Prop :=
  ms_latest ms <> 0 /\ vget (ms_infos ms) (ms_latest ms) = Some ci /\
  Forall2 (fun nt old => t_ver (snd nt) = target_of ci (fst nt) /\ t_ver (snd nt) <> 0 /\ tree_ok (snd nt) old) (ms_trees ms) olds.

Lemma load_trees_after p ci : 1 <= keep_recent p -> forall ts olds ts',
  Forall2 (fun nt old => t_ver (snd nt) = target_of ci (fst nt) /\ t_ver (snd nt) <> 0 /\ tree_ok (snd nt) old) ts olds ->
  Forall2 (fun a b => fst a = fst b /\ tree_after p (snd a) (snd b)) ts ts' ->
  exists loaded, load_trees ts' (Some ci) = Some loaded /\
    Forall2 (fun l no => fst l = fst (fst no) /\ t_work (snd l) = snd no /\ t_ver (snd l) = t_ver (snd (fst no))) loaded (combine ts olds).
Proof.
  intros Hk. induction ts as [|[name t] r IH]; intros olds ts' Ho Ha.
  - inversion Ha; subst. inversion Ho; subst. exists []. split; [reflexivity|constructor].
  - inversion Ho as [|? old ? olds' (Hv & Hn & Hok) Ho']; subst. inversion Ha as [|? [name' u] ? r' (En & Hu) Ha']; subst.
    cbn [fst snd] in *. subst name'. destruct (IH _ _ Ho' Ha') as (lr & Elr & Flr).
    assert (Lu : vget (t_disk u) (t_ver t) = Some old).
    { destruct Hu as [->|(tf & units & Ec & Hin)]; [exact Hok|].
      apply (store_commit_old_version_stays p t old tf units u Hk Hok Ec (or_intror Hin)). }
    simpl load_trees. fold (target_of ci name). rewrite <- Hv, (load_version_at _ _ _ Hn Lu), Elr.
    eexists. split; [reflexivity|]. constructor; auto.
Qed.

Theorem multistore_crash_safe ms ci olds budget ms' : 1 <= keep_recent (ms_prune ms) -> consistent ms ci olds ->
  commit ms budget = Some (ms', true) ->
  exists ms2, reopen ms' = Some ms2 /\ ms_latest ms2 = ms_latest ms /\ fst (ms_last ms2) = ms_latest ms /\
    Forall2 (fun l no => fst l = fst (fst no) /\ t_work (snd l) = snd no /\ t_ver (snd l) = t_ver (snd (fst no)))
            (ms_trees ms2) (combine (ms_trees ms) olds).
Proof.
  intros Hk (Hl & Hci & Ho). unfold commit.
  destruct (commit_trees (ms_prune ms) (ms_trees ms) budget) as [[[[ts infos] bl] crashed]|] eqn:Ec; [|discriminate].
  pose proof (commit_trees_shape _ _ _ _ _ _ _ Ec) as Sh.
  destruct (crashed || negb (match bl with Some O => false | _ => true end)); [|discriminate].
  intros [= <-]. unfold reopen, load_ms. cbn [ms_latest ms_infos ms_trees ms_prune ms_transient].
  destruct (Z.eqb_spec (ms_latest ms) 0); [contradiction|]. rewrite Hci.
  destruct (load_trees_after (ms_prune ms) ci Hk _ _ _ Ho Sh) as (loaded & El & Fl). rewrite El.
  eexists. split; [reflexivity|]. cbn [ms_latest ms_last ms_trees fst]. auto.
Qed.

(* non-vacuity: a two-substore multistore after one commit is consistent; a commit cut after 0, 1 or 2 of its write units (the root flush never happens) reopens old *)
Definition ex_p : prune := {| keep_recent := 1; keep_every := 0 |}.
Definition ex_ms1 : mstore :=
  match commit (ms_set (ms_set (ms_init [[1]%N; [2]%N] ex_p) [1]%N [10]%N [11]%N) [2]%N [20]%N [21]%N) None with
  | Some (m, _) => ms_set m [1]%N [10]%N [12]%N
  | None => ms_init [] ex_p
  end.
Example ex_ms1_consistent : consistent ex_ms1 [([1]%N, (1, [([10]%N, [11]%N)])); ([2]%N, (1, [([20]%N, [21]%N)]))]
                                        [[([10]%N, [11]%N)]; [([20]%N, [21]%N)]].
Proof.
  split; [intros E; vm_compute in E; discriminate E|]. split; [vm_compute; reflexivity|].
  assert (T : ms_trees ex_ms1 = [([1]%N, {| t_disk := [(1, [([10]%N, [11]%N)])]; t_work := [([10]%N, [12]%N)]; t_ver := 1 |});
                                 ([2]%N, {| t_disk := [(1, [([20]%N, [21]%N)])]; t_work := [([20]%N, [21]%N)]; t_ver := 1 |})])
    by (vm_compute; reflexivity).
  rewrite T. constructor; [|constructor; [|constructor]].
  - split; [reflexivity|]. split; [intros E; discriminate E|reflexivity].
  - split; [reflexivity|]. split; [intros E; discriminate E|reflexivity].
Qed.
Example ex_crash_points : forall b, In b [0; 1; 2]%nat ->
  match commit ex_ms1 (Some b) with
  | Some (m', true) => option_map (fun m => map (fun nt => (fst nt, t_work (snd nt), t_ver (snd nt))) (ms_trees m)) (reopen m')
                       = Some [([1]%N, [([10]%N, [11]%N)], 1); ([2]%N, [([20]%N, [21]%N)], 1)]
  | _ => False
  end.
Proof. intros b [<-|[<-|[<-|[]]]]; vm_compute; reflexivity. Qed.

Lemma find_by_name (l : cinfo) n x : NoDup (map fst l) -> In (n, x) l ->
  find (fun p => beqb (fst p) n) l = Some (n, x).
Proof.
  induction l as [|[m y] l IH]; simpl; intros ND I; [destruct I|].
  inversion ND as [|? ? Hm ND']; subst. destruct I as [[= -> ->]|I]; [rewrite (proj2 (beqb_eq n n) eq_refl); reflexivity|].
  destruct (beqb m n) eqn:B; [|auto]. apply beqb_eq in B. subst m. destruct Hm. apply (in_map fst _ _ I).
Qed.
(* after complete substore commits, the versions the commit ids point at are on disk with the working content *)
Lemma load_trees_committed p (ci : cinfo) : forall ts ts',
  Forall2 (fun a b => fst a = fst b /\ exists units, store_commit p (snd a) = Some (snd b, units)) ts ts' ->
  (forall n t, In (n, t) ts -> 0 <= t_ver t /\ vget (t_disk t) (t_ver t + 1) = None) ->
  (forall n t, In (n, t) ts' -> target_of ci n = t_ver t) ->
  exists loaded, load_trees ts' (Some ci) = Some loaded /\
    Forall2 (fun l nt => fst l = fst nt /\ t_work (snd l) = t_work (snd nt) /\ t_ver (snd l) = t_ver (snd nt) + 1) loaded ts.
Proof.
  induction 1 as [|[na ta] [nb tb] ra rb (En & units & Ec) F IH]; intros Fresh T.
  - exists []. split; [reflexivity|constructor].
  - cbn [fst snd] in *. subst nb. destruct (Fresh na ta (or_introl eq_refl)) as [H0 Hf].
    destruct (store_commit_new_version _ _ _ _ Hf Ec) as (V & W & G).
    destruct IH as (lr & Elr & Flr); [intros n t I; apply (Fresh n t); right; exact I|intros n t I; apply T; right; exact I|].
    cbn [load_trees]. fold (target_of ci na).
    rewrite (T na tb (or_introl eq_refl)), V, (load_version_at _ (t_ver ta + 1) _ ltac:(lia) G), Elr.
    eexists. split; [reflexivity|]. constructor; auto.
Qed.
(* C12: reopening after a commit that ran to the end gives every substore at the new version with exactly the content
   its working tree had, and the commit id (hash) reported by Commit is the one the reopened store reports *)
Theorem multistore_commit_durable ms ms' : 0 <= fst (ms_last ms) ->
  NoDup (map fst (ms_trees ms)) ->
  (forall n t, In (n, t) (ms_trees ms) -> 0 <= t_ver t /\ vget (t_disk t) (t_ver t + 1) = None) ->
  commit ms None = Some (ms', false) ->
  exists ms2, reopen ms' = Some ms2 /\ ms_last ms2 = ms_last ms' /\ ms_latest ms2 = fst (ms_last ms) + 1 /\
    Forall2 (fun l nt => fst l = fst nt /\ t_work (snd l) = t_work (snd nt) /\ t_ver (snd l) = t_ver (snd nt) + 1)
            (ms_trees ms2) (ms_trees ms).
Proof.
  intros Hv ND Fresh E. destruct (commit_all _ _ _ E) as (_ & _ & El & Ela & Ei & F).
  unfold reopen, load_ms. rewrite El. destruct (Z.eqb_spec (fst (ms_last ms) + 1) 0) as [E0|_]; [lia|]. rewrite Ei, Ela.
  set (ci := map _ (ms_trees ms')). destruct (load_trees_committed _ ci _ _ F Fresh) as (loaded & -> & Fl).
  - (* the recorded commit ids point every substore at its own new version: the names are distinct *)
    intros n t Hb. unfold target_of.
    rewrite (find_by_name ci n (t_ver t, t_work t)); [reflexivity| |exact (in_map _ _ _ Hb)].
    unfold ci. rewrite map_map. cbn [fst]. replace (map _ (ms_trees ms')) with (map fst (ms_trees ms)); [exact ND|].
    clear -F. induction F as [|? ? ? ? [En _]]; cbn; congruence.
  - eexists. split; [reflexivity|]. cbn [ms_last ms_latest ms_trees]. auto.
Qed.
