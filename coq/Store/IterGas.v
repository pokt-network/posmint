(* C16: gas charged by iterating a gas store (gaskv.gasIterator over an effect-free parent iterator).
   newGasIterator charges the seek cost of the first item when it is created (s_iter, Gas case) and Next charges
   the seek cost of the CURRENT item before it advances, so a complete  for ; Valid(); Next() { Key(); Value() }
   loop over the items l charges, after creation, exactly the sum over l of
   ReadCostPerByte * len(value) + IterNextCostFlat; it returns exactly l; and when that total would cross the
   limit the loop stops with out-of-gas at the step whose charge crosses it (never later, never earlier).
   The loop is analysed once, over any effect-free iterator that walks a list ([shows]); the list iterator of a
   MemDB and the prefix iterator over it are the two instances. The file ends with the same loop over a traced store
   (one iterKey and one iterValue line per item) and with what iterating a prefix store yields. *)
From Coq Require Import List NArith Lia.
From PM Require Import Base.Bytes Store.KV Store.WrapProofs.
Import ListNotations.
Local Open Scope N_scope.

Definition step_cost (cfg : gascfg) (kv : bytes * bytes) : N :=
  mul64 (g_read_byte cfg) (blen (snd kv)) + g_iter_flat cfg.
Fixpoint iter_cost (cfg : gascfg) (l : list (bytes * bytes)) : N :=
  match l with [] => 0 | kv :: r => step_cost cfg kv + iter_cost cfg r end.
Definition head_cost (cfg : gascfg) (l : list (bytes * bytes)) : N :=
  match l with [] => 0 | kv :: _ => step_cost cfg kv end.

(* a total charge c that neither overflows uint64 nor crosses the limit of w *)
Definition within (w : world) (c : N) : Prop :=
  c <= max_u64 /\ match w_limit w with Some lim => c <= lim | None => True end.

Lemma consume_within a w : within w (w_consumed w + a) ->
  consume a w = (Ok tt, set_consumed w (w_consumed w + a)).
Proof.
  intros [Hm Hl]. unfold consume.
  destruct (N.ltb_spec (max_u64 - w_consumed w) a) as [H|H]; [lia|].
  destruct (w_limit w) as [lim|]; [|reflexivity].
  destruct (N.ltb_spec lim (w_consumed w + a)) as [H2|H2]; [lia|reflexivity].
Qed.
Lemma consume_over a w lim : w_limit w = Some lim -> lim < w_consumed w + a <= max_u64 ->
  consume a w = (Panic POutOfGas, set_consumed w (w_consumed w + a)).
Proof.
  intros Hl [Ho Hm]. unfold consume. rewrite Hl.
  destruct (N.ltb_spec (max_u64 - w_consumed w) a) as [H|H]; [lia|].
  destruct (N.ltb_spec lim (w_consumed w + a)) as [H2|H2]; [reflexivity|lia].
Qed.

Lemma within_le w a b : a <= b -> within w b -> within w a.
Proof. unfold within. intros Hab [H1 H2]. split; [lia|]. destruct (w_limit w); [lia|exact I]. Qed.

Lemma within_set w c d : within (set_consumed w c) d <-> within w d.
Proof. unfold within; simpl. tauto. Qed.

(* one seek charge (value per byte, then flat), on any iterator whose Value() is v *)
Lemma seek_gas_within ip k v w : it_value ip w = (Ok v, w) ->
  within w (w_consumed w + step_cost (w_cfg w) (k, v)) ->
  seek_gas ip w = (Ok tt, set_consumed w (w_consumed w + step_cost (w_cfg w) (k, v))).
Proof.
  intros Hv Hw. unfold seek_gas, step_cost in *. rewrite Hv. cbn [bind snd] in *.
  rewrite consume_within by (eapply within_le; [|exact Hw]; lia). cbn [bind].
  rewrite consume_within by (apply within_set; cbn; eapply within_le; [|exact Hw]; lia).
  unfold set_consumed; cbn. do 2 f_equal. lia.
Qed.
(* the charge that crosses the limit: whichever of the two parts crosses it panics, with the crossing total *)
Lemma seek_gas_over ip k v w lim : it_value ip w = (Ok v, w) -> w_limit w = Some lim -> w_consumed w <= lim ->
  lim < w_consumed w + step_cost (w_cfg w) (k, v) <= max_u64 ->
  exists w', seek_gas ip w = (Panic POutOfGas, w') /\
             lim < w_consumed w' /\ w_consumed w' <= w_consumed w + step_cost (w_cfg w) (k, v).
Proof.
  intros Hv Hl Hle Hc. unfold seek_gas, step_cost in *. rewrite Hv. cbn [bind snd] in *.
  set (a := mul64 (g_read_byte (w_cfg w)) (blen v)) in *.
  destruct (N.ltb_spec lim (w_consumed w + a)) as [H|H].
  - rewrite (consume_over a w lim) by (auto; lia). cbn [bind].
    eexists. split; [reflexivity|]. cbn. lia.
  - rewrite consume_within by (unfold within; rewrite Hl; lia). cbn [bind].
    rewrite (consume_over _ _ lim) by (cbn; auto; lia).
    eexists. split; [reflexivity|]. cbn. lia.
Qed.

(* [at_items l] is an effect-free iterator standing at the first of the items [l], on which Key() shows [key k]
   for the item (k, v); Next() moves it to the rest on the lists it can walk ([good]) *)
Local Set Implicit Arguments.
Record shows (at_items : list (bytes * bytes) -> iter) (key : bytes -> bytes)
             (good : list (bytes * bytes) -> Prop) : Prop := {
  sh_tl : forall x r, good (x :: r) -> good r;
  sh_size : forall l, it_size (at_items l) = length l;
  sh_nil : it_valid (at_items []) = false;
  sh_valid : forall k v r, it_valid (at_items ((k, v) :: r)) = true;
  sh_key : forall k v r w, it_key (at_items ((k, v) :: r)) w = (Ok (key k), w);
  sh_value : forall k v r w, it_value (at_items ((k, v) :: r)) w = (Ok v, w);
  sh_next : forall k v r w, good ((k, v) :: r) -> it_next (at_items ((k, v) :: r)) w = (Ok tt, at_items r, w) }.
Local Unset Implicit Arguments.

Section GasLoop.
  Context {at_items key good} (H : shows at_items key good).

  (* one turn of the loop: Key, Value, then Next, which charges the current item before it advances *)
  Lemma gas_collect_step f k v r w acc : good ((k, v) :: r) ->
    it_collect (S f) (IGas (at_items ((k, v) :: r))) w acc =
    match seek_gas (at_items ((k, v) :: r)) w with
    | (Ok _, w1) => it_collect f (IGas (at_items r)) w1 ((key k, v) :: acc)
    | (Panic p, w1) => (Panic p, w1)
    end.
  Proof.
    intros G. cbn [it_collect it_valid it_key it_value it_next].
    rewrite (sh_valid H), (sh_key H), (sh_value H).
    destruct (seek_gas _ w) as [[[]|p] w1]; [rewrite (sh_next H) by exact G|]; reflexivity.
  Qed.

  Theorem gas_loop_exact l : forall w acc, good l ->
    within w (w_consumed w + iter_cost (w_cfg w) l) ->
    it_collect (S (length l)) (IGas (at_items l)) w acc =
    (Ok (rev acc ++ map (fun p => (key (fst p), snd p)) l), set_consumed w (w_consumed w + iter_cost (w_cfg w) l)).
  Proof.
    induction l as [|[k v] r IH]; intros w acc G Hw.
    - cbn [length it_collect it_valid]. rewrite (sh_nil H). cbn. rewrite app_nil_r, N.add_0_r.
      destruct w; reflexivity.
    - cbn [length iter_cost] in *. rewrite gas_collect_step by exact G.
      rewrite (seek_gas_within _ k v w (sh_value H k v r w)) by (eapply within_le; [|exact Hw]; lia).
      rewrite IH.
      + cbn [map rev fst snd]. rewrite <- app_assoc. cbn [app]. f_equal. unfold set_consumed; cbn. f_equal. lia.
      + exact (sh_tl H _ _ G).
      + apply within_set. cbn. eapply within_le; [|exact Hw]. lia.
  Qed.

  (* the whole operation on a gas store whose parent hands out [at_items l]: Iterator/ReverseIterator + the complete
     loop returns exactly the items shown and charges the first item's step once more at creation *)
  Theorem gas_store_loop_exact p p' st en asc w l : good l ->
    s_iter p st en asc w = (Ok (at_items l), p', w) ->
    within w (w_consumed w + head_cost (w_cfg w) l + iter_cost (w_cfg w) l) ->
    s_iter_all (Gas p) st en asc w =
    (Ok (map (fun p => (key (fst p), snd p)) l), Gas p',
     set_consumed w (w_consumed w + head_cost (w_cfg w) l + iter_cost (w_cfg w) l)).
  Proof.
    intros G E Hw. unfold s_iter_all. cbn [s_iter]. rewrite E. destruct l as [|[k v] r]; cbn [head_cost] in *.
    - rewrite (sh_nil H). cbn [it_collect it_valid]. rewrite (sh_nil H). cbn. rewrite !N.add_0_r.
      destruct w; reflexivity.
    - rewrite (sh_valid H), (seek_gas_within _ k v w (sh_value H k v r w)) by (eapply within_le; [|exact Hw]; lia).
      cbn [it_size]. rewrite (sh_size H), gas_loop_exact by (try apply within_set; assumption).
      reflexivity.
  Qed.
End GasLoop.

Lemma list_shows : shows IList (fun k => k) (fun _ => True).
Proof. split; intros; auto; reflexivity. Qed.
Lemma map_pair_id {A B} (l : list (A * B)) : map (fun p => (fst p, snd p)) l = l.
Proof. rewrite <- (map_id l) at 2. apply map_ext. intros []. reflexivity. Qed.

(* out-of-gas exactly at the crossing step: the items before it are charged in full, the step whose flat or
   per-byte charge takes the total over the limit panics, and the total reported is the crossing one *)
Theorem gas_iteration_out_of_gas l1 k v l2 w acc lim :
  w_limit w = Some lim ->
  w_consumed w + iter_cost (w_cfg w) l1 <= lim ->
  lim < w_consumed w + iter_cost (w_cfg w) l1 + step_cost (w_cfg w) (k, v) ->
  w_consumed w + iter_cost (w_cfg w) l1 + step_cost (w_cfg w) (k, v) <= max_u64 ->
  exists w', it_collect (S (length (l1 ++ (k, v) :: l2))) (IGas (IList (l1 ++ (k, v) :: l2))) w acc
             = (Panic POutOfGas, w') /\
             lim < w_consumed w' /\
             w_consumed w' <= w_consumed w + iter_cost (w_cfg w) l1 + step_cost (w_cfg w) (k, v).
Proof.
  revert w acc. induction l1 as [|[k1 v1] r IH]; intros w acc Hlim Hle Hcross Hmax; cbn [app length iter_cost] in *;
    rewrite (gas_collect_step list_shows) by exact I.
  - rewrite N.add_0_r in *.
    destruct (seek_gas_over (IList ((k, v) :: l2)) k v w lim eq_refl Hlim Hle (conj Hcross Hmax)) as (w' & -> & Hw').
    exists w'. split; [reflexivity|exact Hw'].
  - rewrite (seek_gas_within (IList ((k1, v1) :: _)) k1 v1 w eq_refl) by (unfold within; rewrite Hlim; lia).
    destruct (IH (set_consumed w (w_consumed w + step_cost (w_cfg w) (k1, v1))) ((k1, v1) :: acc))
      as (w' & E & G1 & G2); try (cbn; first [exact Hlim | lia]).
    exists w'. split; [exact E|]. cbn in G2. split; [exact G1|lia].
Qed.

Theorem gas_store_iteration_exact m st en asc w :
  let l := kv_range m st en asc in
  within w (w_consumed w + head_cost (w_cfg w) l + iter_cost (w_cfg w) l) ->
  s_iter_all (Gas (Base m)) st en asc w =
  (Ok l, Gas (Base m), set_consumed w (w_consumed w + head_cost (w_cfg w) l + iter_cost (w_cfg w) l)).
Proof.
  intros l Hw. rewrite (gas_store_loop_exact list_shows (Base m) (Base m) st en asc w l I eq_refl Hw), map_pair_id.
  reflexivity.
Qed.

(* tracekv.traceIterator: Key() logs an iterKey line, Value() an iterValue line, Next/Valid nothing: a complete loop over a traced
   iterator returns exactly the items and appends, per item and in order, one iterKey and one iterValue line;
   gas and limit are untouched *)
Definition trace_lines (l : list (bytes * bytes)) : list tline :=
  flat_map (fun kv => [(3, fst kv, []); (4, [], snd kv)]) l.
Theorem trace_iteration_exact l : forall w acc,
  exists w', it_collect (S (length l)) (ITrace (IList l)) w acc = (Ok (rev acc ++ l), w') /\
             w_trace w' = rev (trace_lines l) ++ w_trace w /\
             w_consumed w' = w_consumed w /\ w_limit w' = w_limit w /\ w_cfg w' = w_cfg w.
Proof.
  induction l as [|[k v] r IH]; intros w acc.
  - exists w. cbn. rewrite app_nil_r. repeat split; reflexivity.
  - cbn [length].
    assert (E : forall f, it_collect (S f) (ITrace (IList ((k, v) :: r))) w acc =
                          it_collect f (ITrace (IList r)) (log (log w (3, k, [])) (4, [], v)) ((k, v) :: acc))
      by reflexivity.
    rewrite E. destruct (IH (log (log w (3, k, [])) (4, [], v)) ((k, v) :: acc)) as (w' & H1 & H2 & H3).
    exists w'. split; [|split; [|exact H3]].
    + rewrite H1. cbn [rev]. rewrite <- app_assoc. reflexivity.
    + rewrite H2. cbn [trace_lines flat_map log w_trace fst snd app rev].
      fold (trace_lines r). rewrite <- !app_assoc. reflexivity.
Qed.
Theorem trace_store_iteration_exact m st en asc w :
  let l := kv_range m st en asc in
  exists w', s_iter_all (Trace (Base m)) st en asc w = (Ok l, Trace (Base m), w') /\
             w_trace w' = rev (trace_lines l) ++ w_trace w /\
             w_consumed w' = w_consumed w /\ w_limit w' = w_limit w /\ w_cfg w' = w_cfg w.
Proof.
  intros l. unfold s_iter_all. cbn [s_iter]. fold l.
  change (it_size (ITrace (IList l))) with (length l).
  destruct (trace_iteration_exact l w []) as [w' [H1 H2]].
  exists w'. rewrite H1. cbn [rev app]. split; [reflexivity|exact H2].
Qed.

(* Valid() of the list iterator over l *)
Definition pv (l : list (bytes * bytes)) : bool := match l with [] => false | _ => true end.
Definition stripped pfx (l : list (bytes * bytes)) := map (fun p => (strip pfx (fst p), snd p)) l.
Definition all_prefixed pfx (l : list (bytes * bytes)) := forall p, In p l -> has_prefix pfx (fst p) = true.

Lemma prefix_shows pfx : shows (fun l => IPrefix pfx (pv l) (IList l)) (strip pfx) (all_prefixed pfx).
Proof.
  split; try reflexivity.
  - intros x r G p Hp. apply G. right. exact Hp.
  - intros k v [|[k2 v2] r] w G; cbn; [reflexivity|].
    rewrite (G (k2, v2) (or_intror (or_introl eq_refl)) : has_prefix pfx k2 = true). reflexivity.
Qed.

Definition prefixed_items pfx (m : list (bytes * bytes)) asc := dir asc (filter (fun p => has_prefix pfx (fst p)) m).
Lemma prefixed_items_all pfx m asc : all_prefixed pfx (prefixed_items pfx m asc).
Proof.
  intros p Hp. unfold prefixed_items, dir in Hp. destruct asc; [|apply in_rev in Hp]; apply filter_In in Hp; tauto.
Qed.
Lemma prefix_iter_shape pfx m asc w : wf_bytes pfx -> (forall k v, In (k, v) m -> wf_bytes k) ->
  let l := prefixed_items pfx m asc in
  s_iter (Prefix pfx (Base m)) [] None asc w = (Ok (IPrefix pfx (pv l) (IList l)), Prefix pfx (Base m), w).
Proof.
  intros Wp Wm l. simpl s_iter. rewrite app_nil_r. unfold kv_range.
  assert (F : filter (fun p : bytes * bytes => in_domain (fst p) pfx (prefix_end_bytes pfx)) m = filter (fun p => has_prefix pfx (fst p)) m).
  { apply filter_ext_in. intros [k v] Hin. apply in_domain_is_prefix; auto. eapply Wm; eauto. }
  rewrite F. fold (prefixed_items pfx m asc). fold l.
  pose proof (prefixed_items_all pfx m asc) as Hl. fold l in Hl.
  destruct l as [|[k x] r] eqn:El.
  - reflexivity.
  - cbn [it_valid it_key pv]. pose proof (Hl (k, x) (or_introl eq_refl)) as Hk. simpl in Hk. rewrite Hk. reflexivity.
Qed.

Lemma drain_prefixed pfx l : all_prefixed pfx l -> drain (IPrefix pfx (pv l) (IList l)) = stripped pfx l.
Proof.
  intros Hl. transitivity (drain (IPrefix pfx true (IList l))); [destruct l; reflexivity|].
  induction l as [|[k v] l IH]; [reflexivity|]. simpl in *.
  rewrite (Hl (k, v) (or_introl eq_refl) : has_prefix pfx k = true), IH; [reflexivity|].
  intros p Hp. apply Hl. right. exact Hp.
Qed.

(* the whole operation on a gas store over a prefix store over a map: the complete loop returns exactly the parent's
   items carrying the prefix, stripped, in iteration order, and charges exactly what the unprefixed items cost
   (values only: key bytes are never charged), the first one once more at creation *)
Theorem gas_prefix_store_iteration_exact pfx m asc w :
  wf_bytes pfx -> (forall k v, In (k, v) m -> wf_bytes k) ->
  let l := prefixed_items pfx m asc in
  within w (w_consumed w + head_cost (w_cfg w) l + iter_cost (w_cfg w) l) ->
  s_iter_all (Gas (Prefix pfx (Base m))) [] None asc w =
  (Ok (stripped pfx l), Gas (Prefix pfx (Base m)),
   set_consumed w (w_consumed w + head_cost (w_cfg w) l + iter_cost (w_cfg w) l)).
Proof.
  intros Wp Wm l.
  exact (gas_store_loop_exact (prefix_shows pfx) _ _ [] None asc w l (prefixed_items_all pfx m asc)
           (prefix_iter_shape pfx m asc w Wp Wm)).
Qed.
