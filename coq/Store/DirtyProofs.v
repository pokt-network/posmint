(* C15, the part the merge-iterator theorem takes as given: the cache items handed to the merge iterator by
   cachekv.iterator - produced by dirtyItems (move the in-range keys of the unsorted cache into the sorted
   linked list, replacing stale entries) and newMemIterator (scan with the entered/break shortcut) - are
   EXACTLY the dirty entries of the cache in the requested range, in key order, with their CURRENT values.
   With it: iterating a nest of cache stores of any depth yields exactly the in-range items of the overlaid
   view, ascending or descending, for every range.
   Lists are compared through their lookups: each list operation on the way (filter, map on values, rev,
   merge_dirty) keeps sortedness and has an equation for [assoc] of its result, and two lists sorted in the same
   direction with the same lookups are equal. *)
From Coq Require Import List Bool.
From PM Require Import Base.Bytes Store.KV Store.MergeProofs Store.KVProofs.
Import ListNotations.

Lemma rev_dsorted {V} (l : list (bytes * V)) : dsorted true l -> dsorted false (rev l).
Proof.
  assert (G : forall (a : list (bytes * V)) y, dsorted false a ->
              (forall z, In z a -> cmp false (fst z) (fst y) = Lt) -> dsorted false (a ++ [y])).
  { induction a as [|z a IHa]; simpl; intros y Sa Ba; [split; [intros ? []|exact I]|].
    destruct Sa as [Bz Sa]. split; [|apply IHa; auto; intros z0 Hz0; apply Ba; right; exact Hz0].
    intros w Hw. apply in_app_or in Hw. destruct Hw as [Hw|[<-|[]]]; [apply Bz; auto|apply Ba; auto]. }
  induction l as [|x r IH]; simpl; auto. intros [B S]. apply G; [apply IH; auto|].
  intros z Hz. apply in_rev in Hz. pose proof (B z Hz) as L. apply (cmp_gt_lt true) in L.
  unfold cmp in *. rewrite L. reflexivity.
Qed.
Lemma dir_dsorted asc {V} (l : list (bytes * V)) : dsorted true l -> dsorted asc (dir asc l).
Proof. destruct asc; simpl; auto. apply rev_dsorted. Qed.
Lemma assoc_rev {V} (l : list (bytes * V)) k : dsorted true l -> assoc (rev l) k = assoc l k.
Proof. intros S. apply (assoc_same_in false true); auto using rev_dsorted. intros y. symmetry. apply in_rev. Qed.
Lemma assoc_dir asc {V} (l : list (bytes * V)) k : dsorted true l -> assoc (dir asc l) k = assoc l k.
Proof. destruct asc; simpl; auto. apply assoc_rev. Qed.

Lemma assoc_filter_key {V} (g : bytes -> bool) (l : list (bytes * V)) k :
  assoc (filter (fun p => g (fst p)) l) k = if g k then assoc l k else None.
Proof.
  induction l as [|[k0 v0] r IH]; simpl; [destruct (g k); auto|].
  destruct (g k0) eqn:G0; simpl; destruct (beqb k0 k) eqn:B; try (apply beqb_eq in B; subst; rewrite G0); auto.
  rewrite IH. rewrite G0. reflexivity.
Qed.

(* merge_dirty is the sorted union in which the moved (left) items win *)
Lemma merge_dirty_nil_r un : merge_dirty un [] = un.
Proof. destruct un; reflexivity. Qed.
Lemma merge_dirty_cons u un s so : merge_dirty (u :: un) (s :: so) =
  match bcompare (fst u) (fst s) with
  | Lt => u :: merge_dirty un (s :: so)
  | Gt => s :: merge_dirty (u :: un) so
  | Eq => u :: merge_dirty un so
  end.
Proof. reflexivity. Qed.
Lemma merge_dirty_sem (un : list mem_item) : forall so, asorted un -> asorted so ->
  asorted (merge_dirty un so) /\
  (forall k, assoc (merge_dirty un so) k = match assoc un k with Some v => Some v | None => assoc so k end) /\
  (forall d, below true d un -> below true d so -> below true d (merge_dirty un so)).
Proof.
  assert (T : forall d (x : mem_item) l, below true d (x :: l) -> below true d l)
    by (intros d x l B y Hy; apply B; right; exact Hy).
  induction un as [|[ku vu] un IHu].
  - intros so _ Ss. simpl. destruct so; auto.
  - induction so as [|[ks vs] so IHs]; intros Su Ss.
    + rewrite merge_dirty_nil_r. split; auto. split; [intros k; destruct (assoc _ k); auto|auto].
    + rewrite merge_dirty_cons. pose proof Su as [Bu Su']. pose proof Ss as [Bs Ss']. cbn [fst] in *.
      destruct (bcompare ku ks) eqn:C.
      * apply bcompare_eq in C. subst ks. destruct (IHu so Su' Ss') as (S1 & A1 & B1). split; [|split].
        -- split; auto. apply B1; auto.
        -- intros k. simpl. destruct (beqb ku k); auto.
        -- intros d Bd1 Bd2 y [<-|Hy]; [apply (Bd1 (ku, vu)); left; auto|]. apply (B1 d); eauto.
      * destruct (IHu ((ks, vs) :: so) Su' Ss) as (S1 & A1 & B1). split; [|split].
        -- split; auto. apply B1; auto. apply below_cons; auto.
        -- intros k. cbn [assoc]. destruct (beqb ku k); auto. rewrite A1. reflexivity.
        -- intros d Bd1 Bd2 y [<-|Hy]; [apply (Bd1 (ku, vu)); left; auto|]. apply (B1 d); eauto.
      * apply bcompare_gt_lt in C. destruct (IHs Su Ss') as (S1 & A1 & B1). split; [|split].
        -- split; auto. apply B1; auto. apply below_cons; auto.
        -- intros k. cbn [assoc]. rewrite A1. cbn [assoc]. destruct (beqb ks k) eqn:E; auto.
           apply beqb_eq in E; subst k. destruct (lt_neq true _ _ C) as [_ ->].
           rewrite (assoc_below true ks un); auto. eapply below_trans; eauto.
        -- intros d Bd1 Bd2 y [<-|Hy]; [apply (Bd2 (ks, vs)); left; auto|]. apply (B1 d); eauto.
Qed.

(* on a sorted list newMemIterator's shortcut (once inside the range, stop at the first item outside) loses
   nothing: the scan is the filter *)
Lemma in_domain_lower k s e : in_domain k s e = true -> bleb s k = true.
Proof. unfold in_domain. intros H. apply andb_true_iff in H. tauto. Qed.
Lemma bleb_trans a b c : bleb a b = true -> bltb b c = true -> bleb a c = true.
Proof.
  unfold bleb, bltb. destruct (bcompare a b) eqn:C1; try discriminate; destruct (bcompare b c) eqn:C2; try discriminate; intros _ _.
  - apply bcompare_eq in C1; subst. rewrite C2. reflexivity.
  - rewrite (bcompare_lt_trans _ _ _ C1 C2). reflexivity.
Qed.
Lemma mem_scan_entered s e (l : list mem_item) : asorted l -> (forall y, In y l -> bleb s (fst y) = true) ->
  mem_scan true s e l = filter (fun it => in_domain (fst it) s e) l.
Proof.
  induction l as [|x r IH]; simpl; auto. intros [B S] L. destruct (in_domain (fst x) s e) eqn:D.
  - f_equal. apply IH; auto.
  - (* x is at or beyond the end: so is everything after it *)
    symmetry.
    assert (G : forall y, In y r -> in_domain (fst y) s e = false).
    { intros y Hy. unfold in_domain in *. rewrite (L x (or_introl eq_refl)) in D. rewrite (L y (or_intror Hy)). cbn [andb] in *.
      destruct e as [e'|]; [|discriminate]. unfold bltb in *. pose proof (B y Hy) as Hlt. change (cmp true (fst x) (fst y)) with (bcompare (fst x) (fst y)) in Hlt.
      destruct (bcompare (fst y) e') eqn:C; auto. rewrite (bcompare_lt_trans _ _ _ Hlt C) in D. discriminate. }
    clear - G. induction r as [|y r IHr]; simpl; auto. rewrite (G y (or_introl eq_refl)). apply IHr. intros z Hz. apply G. right; auto.
Qed.
Lemma mem_scan_sorted s e (l : list mem_item) : asorted l -> mem_scan false s e l = filter (fun it => in_domain (fst it) s e) l.
Proof.
  induction l as [|x r IH]; simpl; auto. intros [B S]. destruct (in_domain (fst x) s e) eqn:D; [|apply IH; auto].
  f_equal. apply mem_scan_entered; auto. intros y Hy. pose proof (B y Hy) as L. apply in_domain_lower in D.
  apply (bleb_trans _ (fst x)); auto. unfold bltb. change (cmp true (fst x) (fst y)) with (bcompare (fst x) (fst y)) in L. rewrite L. reflexivity.
Qed.

Definition dlist (c : cstate) : list mem_item :=
  map (fun p => (fst p, ce_val (snd p))) (filter (fun p => ce_dirty (snd p)) (c_cache c)).
Lemma map_keep_sorted {V W} (f : bytes * V -> W) (l : list (bytes * V)) : dsorted true l -> dsorted true (map (fun p => (fst p, f p)) l).
Proof.
  induction l as [|x r IH]; simpl; auto. intros [B S]. split; [|apply IH; auto].
  intros y Hy. apply in_map_iff in Hy. destruct Hy as (z & <- & Hz). simpl. apply B; auto.
Qed.
Lemma assoc_map_keep {V W} (f : bytes * V -> W) (l : list (bytes * V)) k :
  assoc (map (fun p => (fst p, f p)) l) k = match assoc l k with Some v => Some (f (k, v)) | None => None end.
Proof.
  induction l as [|[k0 v0] r IH]; simpl; auto. destruct (beqb k0 k) eqn:B; auto. apply beqb_eq in B; subst. reflexivity.
Qed.
Lemma dlist_sorted c : asorted (c_cache c) -> asorted (dlist c).
Proof. intros S. unfold dlist. apply (map_keep_sorted (fun p => ce_val (snd p))). apply filter_sorted; auto. Qed.
Lemma assoc_filter_val {V} (g : V -> bool) (l : list (bytes * V)) k : dsorted true l ->
  assoc (filter (fun p => g (snd p)) l) k = match assoc l k with Some v => if g v then Some v else None | None => None end.
Proof.
  induction l as [|[k0 v0] r IH]; simpl; auto. intros [B S]. destruct (beqb k0 k) eqn:E.
  - apply beqb_eq in E; subst. destruct (g v0) eqn:G0; simpl; [rewrite beqb_refl; reflexivity|].
    apply (assoc_below true). intros y Hy. apply filter_In in Hy. apply B. tauto.
  - destruct (g v0); simpl; [rewrite E|]; apply IH; auto.
Qed.
Lemma assoc_dlist c k : asorted (c_cache c) ->
  assoc (dlist c) k = match aget (c_cache c) k with Some e => if ce_dirty e then Some (ce_val e) else None | None => None end.
Proof.
  intros S. unfold dlist. rewrite (assoc_map_keep (fun p => ce_val (snd p))). rewrite (assoc_filter_val ce_dirty) by auto.
  rewrite aget_assoc by auto. destruct (assoc (c_cache c) k) as [e|]; auto. destruct (ce_dirty e); auto.
Qed.

(* The invariant of cachekv's cache, unsortedCache and sortedCache: each is sorted by key; a key of unsorted is
   a dirty key of the cache; every dirty entry of the cache is in unsorted or in sorted; an item of sorted
   belongs to a dirty entry of the cache and carries its current value, unless the key is in unsorted as well
   (a later write, which dirtyItems will move over the item). *)
Definition dinv (c : cstate) : Prop :=
  asorted (c_cache c) /\ asorted (c_unsorted c) /\ asorted (c_sorted c) /\
  (forall k, aget (c_unsorted c) k <> None -> exists e, aget (c_cache c) k = Some e /\ ce_dirty e = true) /\
  (forall k e, aget (c_cache c) k = Some e -> ce_dirty e = true -> aget (c_unsorted c) k <> None \/ assoc (c_sorted c) k <> None) /\
  (forall k v, assoc (c_sorted c) k = Some v -> exists e, aget (c_cache c) k = Some e /\ ce_dirty e = true /\
                                                  (aget (c_unsorted c) k = None -> v = ce_val e)).
Lemma dinv_empty : dinv c_empty.
Proof. repeat split; simpl; auto; try (intros; discriminate); intros k H; contradiction. Qed.

Lemma dinv_set_dirty c k v del : dinv c -> dinv (set_cache_value c k v del true).
Proof.
  intros (S1 & S2 & S3 & U & D & So). unfold dinv, set_cache_value. cbn [c_cache c_unsorted c_sorted].
  split; [apply aset_sorted; auto|]. split; [apply aset_sorted; auto|]. split; [auto|]. split; [|split].
  - intros k'. rewrite !aget_aset. destruct (beqb k k') eqn:B; [intros _; eexists; split; [reflexivity|reflexivity]|apply U].
  - intros k' e'. rewrite !aget_aset. destruct (beqb k k') eqn:B; [intros _ _; left; discriminate|apply D].
  - intros k' v' E. rewrite !aget_aset. destruct (beqb k k') eqn:B.
    + eexists. split; [reflexivity|]. split; [reflexivity|discriminate].
    + apply So; auto.
Qed.
Lemma dinv_set_clean c k v : dinv c -> aget (c_cache c) k = None -> dinv (set_cache_value c k v false false).
Proof.
  intros (S1 & S2 & S3 & U & D & So) N. unfold dinv, set_cache_value. cbn [c_cache c_unsorted c_sorted].
  split; [apply aset_sorted; auto|]. split; [auto|]. split; [auto|]. split; [|split].
  - intros k' H. destruct (U k' H) as (e & E & Dt). exists e. split; auto. rewrite aget_aset.
    destruct (beqb k k') eqn:B; auto. apply beqb_eq in B; subst. congruence.
  - intros k' e'. rewrite aget_aset. destruct (beqb k k') eqn:B; [intros [= <-]; discriminate|apply D].
  - intros k' v' E. destruct (So k' v' E) as (e & Ee & Dt & Vv). exists e. split; auto. rewrite aget_aset.
    destruct (beqb k k') eqn:B; auto. apply beqb_eq in B; subst. congruence.
Qed.

Definition dom (s : bytes) (e : option bytes) (k : bytes) : bool := in_domain k s e.
Definition moved (c : cstate) (s : bytes) (e : option bytes) : list mem_item :=
  map (fun p => (fst p, cache_val c (fst p))) (filter (fun p => in_domain (fst p) s e) (c_unsorted c)).
Lemma moved_sorted c s e : asorted (c_unsorted c) -> asorted (moved c s e).
Proof. intros S. unfold moved. apply (map_keep_sorted (fun p => cache_val c (fst p))). apply filter_sorted; auto. Qed.
Lemma assoc_moved c s e k : asorted (c_unsorted c) ->
  assoc (moved c s e) k = if in_domain k s e then match aget (c_unsorted c) k with Some _ => Some (cache_val c k) | None => None end else None.
Proof.
  intros S. unfold moved. rewrite (assoc_map_keep (fun p => cache_val c (fst p))).
  rewrite (assoc_filter_key (fun k => in_domain k s e)). rewrite aget_assoc by auto.
  destruct (in_domain k s e); [|reflexivity]. destruct (assoc (c_unsorted c) k); reflexivity.
Qed.
Lemma dinv_dirty_items c s e : dinv c -> dinv (dirty_items c s e).
Proof.
  intros (S1 & S2 & S3 & U & D & So).
  destruct (merge_dirty_sem (moved c s e) (c_sorted c) (moved_sorted c s e S2) S3) as (Sm & Am & _).
  assert (Un : forall k, aget (filter (fun p => negb (in_domain (fst p) s e)) (c_unsorted c)) k =
                         if in_domain k s e then None else aget (c_unsorted c) k).
  { intros k. rewrite !aget_assoc by (try apply filter_sorted; auto).
    rewrite (assoc_filter_key (fun k => negb (in_domain k s e))). destruct (in_domain k s e); reflexivity. }
  unfold dinv. cbn [dirty_items c_cache c_unsorted c_sorted]. fold (moved c s e).
  split; [auto|]. split; [apply filter_sorted; auto|]. split; [auto|]. split; [|split].
  - intros k. rewrite Un. destruct (in_domain k s e); [intros H; contradiction|apply U].
  - intros k e0 E0 Dt. rewrite Un, Am, assoc_moved by auto. destruct (in_domain k s e) eqn:Dk.
    + right. destruct (D k e0 E0 Dt) as [H|H].
      * destruct (aget (c_unsorted c) k); [discriminate|contradiction].
      * destruct (aget (c_unsorted c) k); [discriminate|exact H].
    + apply (D k e0); auto.
  - intros k v. rewrite Am, assoc_moved, Un by auto. destruct (in_domain k s e) eqn:Dk.
    + destruct (aget (c_unsorted c) k) as [u|] eqn:Eu.
      * intros [= <-]. destruct (U k ltac:(rewrite Eu; discriminate)) as (e0 & E0 & Dt). exists e0. split; auto. split; auto.
        intros _. unfold cache_val. rewrite E0. reflexivity.
      * intros Es. destruct (So k v Es) as (e0 & E0 & Dt & Vv). exists e0. auto.
    + intros Es. apply (So k v Es).
Qed.

(* what the merge iterator is given: the dirty entries in range, current values, in iteration order *)
Theorem mem_items_are_the_dirty_entries c s e asc : dinv c ->
  mem_items (dirty_items c s e) s e asc = dir asc (filter (fun it => in_domain (fst it) s e) (dlist c)).
Proof.
  intros (S1 & S2 & S3 & U & D & So).
  destruct (merge_dirty_sem (moved c s e) (c_sorted c) (moved_sorted c s e S2) S3) as (Sm & Am & _).
  unfold mem_items. f_equal. cbn [dirty_items c_sorted]. fold (moved c s e). rewrite mem_scan_sorted by exact Sm.
  apply (dsorted_ext true); [apply filter_sorted; exact Sm|apply filter_sorted; apply dlist_sorted; auto|].
  intros k. rewrite !(assoc_filter_key (fun k => in_domain k s e)). destruct (in_domain k s e) eqn:Dk; auto.
  rewrite Am, assoc_moved, Dk, assoc_dlist by auto.
  destruct (aget (c_unsorted c) k) as [u|] eqn:Eu.
  - destruct (U k ltac:(rewrite Eu; discriminate)) as (e0 & E0 & Dt). unfold cache_val. rewrite E0, Dt. reflexivity.
  - destruct (assoc (c_sorted c) k) as [v|] eqn:Es.
    + destruct (So k v Es) as (e0 & E0 & Dt & Vv). rewrite E0, Dt, (Vv Eu). reflexivity.
    + destruct (aget (c_cache c) k) as [e0|] eqn:E0; auto. destruct (ce_dirty e0) eqn:Dt; auto.
      destruct (D k e0 E0 Dt) as [X|X]; [rewrite Eu in X|rewrite Es in X]; contradiction.
Qed.

Fixpoint dnest (s : store) : Prop :=
  match s with Base _ => True | Cache c p => dinv c /\ dnest p | _ => False end.

Lemma s_get_dnest s : forall k w r s' w', dnest s -> s_get s k w = (r, s', w') -> dnest s'.
Proof.
  induction s as [m|c p IH|? ? _|? _|? _]; intros k w r s' w' D; simpl in D; try contradiction; simpl.
  - intros [= _ <- _]. exact I.
  - destruct D as [Dc Dp]. destruct (aget (c_cache c) k) as [e|] eqn:E; [intros [= _ <- _]; split; auto|].
    destruct (s_get p k w) as [[rp p'] wp] eqn:Ep. pose proof (IH _ _ _ _ _ Dp Ep) as Dp'.
    destruct rp; intros [= _ <- _]; split; auto. apply dinv_set_clean; auto.
Qed.
Lemma s_has_dnest s k w r s' w' : dnest s -> s_has s k w = (r, s', w') -> dnest s'.
Proof.
  destruct s as [m|c p|? ?|?|?]; intros D; simpl in D; try contradiction; simpl.
  - intros [= _ <- _]. exact I.
  - destruct D as [Dc Dp]. destruct (aget (c_cache c) k) as [e|] eqn:E; [intros [= _ <- _]; split; auto|].
    destruct (s_get p k w) as [[rp p'] wp] eqn:Ep. pose proof (s_get_dnest _ _ _ _ _ _ Dp Ep) as Dp'.
    destruct rp; intros [= _ <- _]; split; auto. apply dinv_set_clean; auto.
Qed.
Lemma s_set_dnest s k v w r s' w' : dnest s -> s_set s k v w = (r, s', w') -> dnest s'.
Proof.
  destruct s as [m|c p|? ?|?|?]; intros D; simpl in D; try contradiction; simpl; intros [= _ <- _]; [exact I|].
  destruct D; split; auto. apply dinv_set_dirty; auto.
Qed.
Lemma s_delete_dnest s k w r s' w' : dnest s -> s_delete s k w = (r, s', w') -> dnest s'.
Proof.
  destruct s as [m|c p|? ?|?|?]; intros D; simpl in D; try contradiction; simpl; intros [= _ <- _]; [exact I|].
  destruct D; split; auto. apply dinv_set_dirty; auto.
Qed.
Lemma write_entries_dnest es : forall p w r p' w', dnest p -> write_entries es p w = (r, p', w') -> dnest p'.
Proof.
  induction es as [|[k e] rr IH]; intros p w r p' w' D; simpl; [intros [= _ <- _]; auto|].
  destruct (ce_dirty e); [|apply IH; auto].
  destruct (ce_deleted e).
  - destruct (s_delete p k w) as [[r1 p1] w1] eqn:E1. pose proof (s_delete_dnest _ _ _ _ _ _ D E1) as D1.
    destruct r1; [apply IH; auto|intros [= _ <- _]; auto].
  - destruct (ce_val e) as [v|]; [|apply IH; auto].
    destruct (s_set p k v w) as [[r1 p1] w1] eqn:E1. pose proof (s_set_dnest _ _ _ _ _ _ _ D E1) as D1.
    destruct r1; [apply IH; auto|intros [= _ <- _]; auto].
Qed.
Lemma c_write_dnest s w r s' w' : dnest s -> c_write s w = (r, s', w') -> dnest s'.
Proof.
  destruct s as [m|c p|? ?|?|?]; intros D; simpl in D; try contradiction; simpl; [intros [= _ <- _]; exact I|].
  destruct D as [Dc Dp]. destruct (write_entries (c_cache c) p w) as [[r1 p1] w1] eqn:E1.
  pose proof (write_entries_dnest _ _ _ _ _ _ Dp E1) as D1.
  destruct r1; intros [= _ <- _]; split; auto. apply dinv_empty.
Qed.

Lemma assoc_kv_range {V} (m : amap V) st en asc k : asorted m ->
  assoc (kv_range m st en asc) k = if in_domain k st en then assoc m k else None.
Proof.
  intros S. unfold kv_range. rewrite assoc_dir by (apply filter_sorted; auto).
  apply (assoc_filter_key (fun k => in_domain k st en)).
Qed.
Lemma kv_range_dsorted {V} (m : amap V) st en asc : asorted m -> dsorted asc (kv_range m st en asc).
Proof. intros S. unfold kv_range. apply dir_dsorted. apply filter_sorted; auto. Qed.

(* one layer: merging the parent's range with the cache's range gives the range of the overlaid view *)
Lemma merge_ranges c m st en asc : cache_ok c m -> asorted m ->
  merge_spec asc (kv_range m st en asc) (kv_range (dlist c) st en asc) = kv_range (cache_abs c m) st en asc.
Proof.
  intros OK Sm. pose proof OK as [Sc OKe]. pose proof (dlist_sorted c Sc) as Sd.
  pose proof (cache_abs_sorted c m Sm) as Sa.
  destruct (merge_spec_sem asc _ _ (kv_range_dsorted m st en asc Sm) (kv_range_dsorted (dlist c) st en asc Sd))
    as (Sl & Al).
  apply (dsorted_ext asc); [exact Sl|apply kv_range_dsorted; exact Sa|].
  intros k. rewrite Al. unfold overlay_at. rewrite !assoc_kv_range by assumption.
  destruct (in_domain k st en); [|reflexivity].
  rewrite assoc_dlist, <- !aget_assoc, cache_abs_view by assumption. unfold view.
  destruct (aget (c_cache c) k) as [e|] eqn:Ee; [|reflexivity].
  destruct (OKe k e Ee) as (Cl & _ & _). destruct (ce_dirty e).
  - destruct (ce_val e); reflexivity.
  - destruct (Cl eq_refl) as [-> _]. reflexivity.
Qed.

(* C15: iterating a nest of cache stores yields the in-range items of the overlaid view, in the direction asked *)
Theorem iter_refines s : forall st en asc w, nest_ok s -> dnest s ->
  exists l s', s_iter s st en asc w = (Ok (IList l), s', w) /\ l = kv_range (abs s) st en asc /\
               nest_ok s' /\ dnest s' /\ abs s' = abs s.
Proof.
  induction s as [m|c p IH|? ? _|? _|? _]; intros st en asc w N D; simpl in N, D; try contradiction.
  - exists (kv_range m st en asc), (Base m). simpl. auto.
  - destruct N as [Np OK]. destruct D as [Dc Dp].
    destruct (IH st en asc w Np Dp) as (lp & p' & Ep & -> & Np' & Dp' & Ap).
    exists (kv_range (abs (Cache c p)) st en asc), (Cache (dirty_items c st en) p').
    split; [|split; [reflexivity|split; [|split]]].
    + simpl s_iter. rewrite Ep. cbn [drain].
      rewrite (mem_items_are_the_dirty_entries c st en asc Dc : _ = kv_range (dlist c) st en asc), merge_run_spec.
      rewrite (merge_ranges c (abs p) st en asc OK (abs_sorted p Np)). reflexivity.
    + split; [exact Np'|]. rewrite Ap. exact OK.
    + split; [apply dinv_dirty_items; auto|exact Dp'].
    + cbn [abs]. rewrite Ap. reflexivity.
Qed.
