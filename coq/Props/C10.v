(* C10 — Rewards: fees go to the proposer, awards are minted exactly once.
   Statements, each closed by a lemma of the proof files or a few lines on top of one. *)
From Coq Require Import List ZArith.
From PM Require Import Base.Bytes Store.KV Store.MergeProofs App.Model App.Walk App.BankProofs App.TxProofs
  App.AwardProofs App.Examples.
Import ListNotations.
Local Open Scope Z_scope.

Theorem C10_award_queue_emptied s : awards (mint_awards s) = [].
Proof. exact (awards_queue_emptied s). Qed.
Theorem C10_awards_conserve s : bank_ok s -> bank_ok (mint_awards s).
Proof. exact (closed_mint_awards _ _ bank_closed s). Qed.
Theorem C10_fee_reward_conserves s p s' : bank_ok s -> reward_from_fees s p = Some s' -> bank_ok s'.
Proof. intros H E. exact (c_reward _ _ bank_closed _ _ _ E H). Qed.
Theorem C10_one_award_mints_exactly s a amt s1 s2 : bank_ok s ->
  bank_mint s (m_pool (ma s)) amt = Some s1 -> bank_send s1 (m_pool (ma s1)) a amt = Some s2 ->
  mint_award s a amt = s2 /\ supply s2 = supply s + amt.
Proof. exact (one_award_mints_exactly s a amt s1 s2). Qed.
(* the WHOLE fee-collector balance goes to the previous proposer (or stays in the pos account when that address is
   not a validator), the collector is empty afterwards, nobody else's balance moves, the supply does not change *)
Theorem C10_fees_go_to_the_proposer_in_full s p s' : bank_ok s ->
  m_fee (ma s) <> m_pos (ma s) -> p <> m_fee (ma s) -> p <> m_pos (ma s) ->
  reward_from_fees s p = Some s' ->
  bal s' (m_fee (ma s)) = 0 /\ supply s' = supply s /\
  (forall x, x <> m_fee (ma s) -> x <> m_pos (ma s) -> x <> p -> bal s' x = bal s x) /\
  match get_val s p with
  | Some _ => bal s' p = bal s p + bal s (m_fee (ma s)) /\ bal s' (m_pos (ma s)) = bal s (m_pos (ma s))
  | None => bal s' p = bal s p /\ bal s' (m_pos (ma s)) = bal s (m_pos (ma s)) + bal s (m_fee (ma s))
  end.
Proof. exact (reward_from_fees_exact s p s'). Qed.
(* the whole queue at BeginBlock: every address receives exactly what was queued for it, newly minted; the supply grows
   by exactly the sum of the queue; nobody else's balance moves; the queue is empty afterwards (App/AwardProofs.v) *)
Theorem C10_every_queued_award_is_minted_exactly_once s : bank_ok s -> (forall a x, In (a, x) (awards s) -> 0 <= x) ->
  let s' := mint_awards s in
  awards s' = [] /\ bank_ok s' /\ supply s' = supply s + qtotal (awards s) /\
  forall b, bal s' b = bal s b + queued (awards s) b.
Proof. exact (mint_awards_exact s). Qed.
Theorem C10_queued_is_the_map_entry (m : amap Z) b : dsorted true m -> queued m b = match aget m b with Some x => x | None => 0 end.
Proof. exact (queued_map m b). Qed.
(* awards queued for the same address during a block add up *)
Theorem C10_awards_accumulate s a x : dsorted true (awards s) ->
  forall b, getz (awards (k_award s a x)) b = getz (awards s) b + (if beqb a b then x else 0).
Proof. intros _. exact (k_award_accumulates s a x). Qed.
Example C10_ex : exists s, ex_final = Some s /\ aget (accts s) A3 = Some 47.
Proof. exact ex_award_paid. Qed.
Print Assumptions C10_award_queue_emptied.
Print Assumptions C10_one_award_mints_exactly.
Print Assumptions C10_fees_go_to_the_proposer_in_full.
Print Assumptions C10_every_queued_award_is_minted_exactly_once.
