(* C16 — Store wrappers are transparent: prefix isolation, exact gas, faithful trace.
   Statements, each closed by a lemma of the proof files or a few lines on top of one. *)
From Coq Require Import List NArith.
From PM Require Import Base.Bytes Store.KV Store.MergeProofs Store.KVProofs Store.WrapProofs Store.IterGas.
Import ListNotations.
Local Open Scope N_scope.

(* the key range [prefix, PrefixEndBytes(prefix)) is exactly the set of keys with that prefix,
   for every non-empty prefix including all-0xFF ones (end = nil: unbounded) *)
Theorem C16_prefix_end_bytes p k : p <> [] -> wf_bytes p -> wf_bytes k ->
  (has_prefix p k = true <->
   bleb p k = true /\ match prefix_end_bytes p with None => True | Some e => bltb k e = true end).
Proof. intros _. exact (prefix_end_bytes_spec p k). Qed.

(* gas: ConsumeGas adds exactly; out-of-gas exactly when the total crosses the limit (and the
   total is kept); an overflowing total is reported, never wrapped *)
Theorem C16_consume amount w : gas_ok w -> amount <= max_u64 ->
  let total := w_consumed w + amount in
  match consume amount w with
  | (Ok _, w') => total <= max_u64 /\ w_consumed w' = total /\
                  match w_limit w with Some lim => total <= lim | None => True end
  | (Panic POutOfGas, w') => total <= max_u64 /\ w_consumed w' = total /\
                  exists lim, w_limit w = Some lim /\ lim < total
  | (Panic PGasOverflow, w') => max_u64 < total
  | (Panic _, _) => False
  end.
Proof. exact (consume_spec amount w). Qed.
(* a gas store that does not panic returns what the wrapped store returns *)
Theorem C16_gas_get_transparent p k w r p' w' :
  s_get (Gas p) k w = (Ok r, p', w') ->
  exists w1 p1 w2, consume (g_read_flat (w_cfg w)) w = (Ok tt, w1) /\ s_get p k w1 = (Ok r, p1, w2) /\ p' = Gas p1.
Proof. exact (gas_get_transparent p k w r p' w'). Qed.
(* a traced read returns the wrapped result and appends exactly one "read" line *)
Theorem C16_trace_get p k w r p' w' :
  s_get (Trace p) k w = (Ok r, p', w') ->
  exists p1 w1, s_get p k w = (Ok r, p1, w1) /\ p' = Trace p1 /\
    w_trace w' = (1, k, match r with Some x => x | None => [] end) :: w_trace w1.
Proof. exact (trace_get_logs p k w r p' w'). Qed.

Theorem C16_gas_set_exact m k v w p' w' : s_set (Gas (Base m)) k v w = (Ok tt, p', w') ->
  p' = Gas (Base (aset m k v)) /\
  w_consumed w' = w_consumed w + g_write_flat (w_cfg w) + mul64 (g_write_byte (w_cfg w)) (blen v).
Proof. exact (gas_set_exact m k v w p' w'). Qed.
Theorem C16_gas_get_exact m k w r p' w' : s_get (Gas (Base m)) k w = (Ok r, p', w') ->
  r = aget m k /\ p' = Gas (Base m) /\
  w_consumed w' = w_consumed w + g_read_flat (w_cfg w) + mul64 (g_read_byte (w_cfg w)) (olen r).
Proof. exact (gas_get_exact m k w r p' w'). Qed.
Theorem C16_gas_delete_exact m k w p' w' : s_delete (Gas (Base m)) k w = (Ok tt, p', w') ->
  p' = Gas (Base (adel m k)) /\ w_consumed w' = w_consumed w + g_delete (w_cfg w).
Proof. exact (gas_delete_exact m k w p' w'). Qed.
Theorem C16_gas_has_exact m k w r p' w' : s_has (Gas (Base m)) k w = (Ok r, p', w') ->
  r = (match aget m k with Some _ => true | None => false end) /\ p' = Gas (Base m) /\
  w_consumed w' = w_consumed w + g_has (w_cfg w).
Proof. exact (gas_has_exact m k w r p' w'). Qed.
(* prefix isolation: a prefix store touches exactly prefix ++ k and nothing without the prefix; iterating it
   (either direction) yields exactly the parent's items carrying the prefix, with the prefix stripped *)
Theorem C16_prefix_set_isolated pfx m k v w : dsorted true m ->
  s_set (Prefix pfx (Base m)) k v w = (Ok tt, Prefix pfx (Base (aset m (pfx ++ k) v)), w) /\
  forall k', has_prefix pfx k' = false -> aget (aset m (pfx ++ k) v) k' = aget m k'.
Proof. intros _. exact (prefix_set_isolated pfx m k v w). Qed.
Theorem C16_prefix_delete_isolated pfx m k w : dsorted true m ->
  s_delete (Prefix pfx (Base m)) k w = (Ok tt, Prefix pfx (Base (adel m (pfx ++ k))), w) /\
  forall k', has_prefix pfx k' = false -> aget (adel m (pfx ++ k)) k' = aget m k'.
Proof. exact (prefix_delete_isolated pfx m k w). Qed.
Theorem C16_prefix_iteration_is_the_prefixed_items pfx m asc w : pfx <> [] -> wf_bytes pfx ->
  (forall k v, In (k, v) m -> wf_bytes k) ->
  exists it, s_iter (Prefix pfx (Base m)) [] None asc w = (Ok it, Prefix pfx (Base m), w) /\
             drain it = map (fun p => (strip pfx (fst p), snd p)) (dir asc (filter (fun p => has_prefix pfx (fst p)) m)).
Proof.
  intros _ Wp Wm. eexists. split; [exact (prefix_iter_shape pfx m asc w Wp Wm)|].
  exact (drain_prefixed pfx _ (prefixed_items_all pfx m asc)).
Qed.

(* iterator step gas (store/gaskv gasIterator): the complete  for ; Valid(); Next() { Key(); Value() }  loop over a gas
   store returns exactly the in-range items in order and charges ReadCostPerByte*len(value) + IterNextCostFlat per
   item, plus the first item's charge once more when the iterator is created; nothing else *)
Theorem C16_gas_iteration_exact m st en asc w :
  let l := kv_range m st en asc in
  within w (w_consumed w + head_cost (w_cfg w) l + iter_cost (w_cfg w) l) ->
  s_iter_all (Gas (Base m)) st en asc w =
  (Ok l, Gas (Base m), set_consumed w (w_consumed w + head_cost (w_cfg w) l + iter_cost (w_cfg w) l)).
Proof. exact (gas_store_iteration_exact m st en asc w). Qed.
(* out-of-gas is raised at exactly the step whose charge crosses the limit: the items before it are charged in full
   and returned to the loop body, the crossing step panics, and the reported total is past the limit but not past
   that step's full charge *)
Theorem C16_gas_iteration_out_of_gas_at_the_crossing l1 k v l2 w acc lim :
  w_limit w = Some lim ->
  w_consumed w + iter_cost (w_cfg w) l1 <= lim ->
  lim < w_consumed w + iter_cost (w_cfg w) l1 + step_cost (w_cfg w) (k, v) ->
  w_consumed w + iter_cost (w_cfg w) l1 + step_cost (w_cfg w) (k, v) <= max_u64 ->
  exists w', it_collect (S (length (l1 ++ (k, v) :: l2))) (IGas (IList (l1 ++ (k, v) :: l2))) w acc
             = (Panic POutOfGas, w') /\
             lim < w_consumed w' /\
             w_consumed w' <= w_consumed w + iter_cost (w_cfg w) l1 + step_cost (w_cfg w) (k, v).
Proof. exact (gas_iteration_out_of_gas l1 k v l2 w acc lim). Qed.
(* the trace of an iteration: a complete loop over a traced store returns exactly the in-range items and appends, per
   item and in iteration order, one iterKey line and one iterValue line (newest first in w_trace); no gas is touched *)
Theorem C16_trace_iteration_exact m st en asc w :
  let l := kv_range m st en asc in
  exists w', s_iter_all (Trace (Base m)) st en asc w = (Ok l, Trace (Base m), w') /\
             w_trace w' = rev (trace_lines l) ++ w_trace w /\
             w_consumed w' = w_consumed w /\ w_limit w' = w_limit w /\ w_cfg w' = w_cfg w.
Proof. exact (trace_store_iteration_exact m st en asc w). Qed.
(* stacking: a gas store over a prefix store over a map. The complete loop returns exactly the parent's items carrying the
   prefix, stripped, in iteration order, and is charged for the values only (key bytes are never charged), the first
   item once more at creation *)
Theorem C16_gas_over_prefix_iteration_exact pfx m asc w :
  pfx <> [] -> wf_bytes pfx -> (forall k v, In (k, v) m -> wf_bytes k) ->
  let l := prefixed_items pfx m asc in
  within w (w_consumed w + head_cost (w_cfg w) l + iter_cost (w_cfg w) l) ->
  s_iter_all (Gas (Prefix pfx (Base m))) [] None asc w =
  (Ok (stripped pfx l), Gas (Prefix pfx (Base m)),
   set_consumed w (w_consumed w + head_cost (w_cfg w) l + iter_cost (w_cfg w) l)).
Proof. intros _. exact (gas_prefix_store_iteration_exact pfx m asc w). Qed.
Example C16_ex_iter_gas :
  let w := {| w_limit := Some 1000; w_consumed := 0; w_trace := []; w_cfg := kv_gas_config |} in
  let '(r, _, w') := s_iter_all (Gas (Base [([1], [7; 7]); ([2], [8])])) [] None true w in
  r = Ok [([1], [7; 7]); ([2], [8])] /\ w_consumed w' = 105.     (* (6+30) + (6+30) + (3+30) *)
Proof. vm_compute. split; reflexivity. Qed.
(* the carry over 0xFF, and the all-0xFF prefix *)
Example C16_ex_prefix_end :
  prefix_end_bytes [97; 255; 255] = Some [98] /\ prefix_end_bytes [255; 255] = None /\
  prefix_end_bytes [1; 2] = Some [1; 3].
Proof. repeat split; vm_compute; reflexivity. Qed.
Example C16_ex_oog :
  let w := {| w_limit := Some 2999; w_consumed := 0; w_trace := []; w_cfg := kv_gas_config |} in
  let '(r1, s1, w1) := s_set (Gas (Base [])) [1] [7] w in          (* 2000 + 30 *)
  let '(r2, s2, w2) := s_get s1 [1] w1 in                           (* +1000 crosses 2999 *)
  r1 = Ok tt /\ r2 = Panic POutOfGas /\ w_consumed w1 = 2030 /\ w_consumed w2 = 3030.
Proof. vm_compute. repeat split; reflexivity. Qed.

Print Assumptions C16_prefix_end_bytes.
Print Assumptions C16_consume.
Print Assumptions C16_gas_get_transparent.
Print Assumptions C16_trace_get.
Print Assumptions C16_gas_set_exact.
Print Assumptions C16_prefix_iteration_is_the_prefixed_items.
Print Assumptions C16_gas_iteration_exact.
Print Assumptions C16_gas_iteration_out_of_gas_at_the_crossing.
Print Assumptions C16_trace_iteration_exact.
Print Assumptions C16_gas_over_prefix_iteration_exact.
