(* C04 — Staked pool backs validator stake one-for-one.
   Statements, each closed by a lemma of the proof files or a few lines on top of one.
   The exact step lemmas (stake moves exactly the amount account -> pool -> record;
   every other pool movement is a mint/burn/send accounted by C02) and the history-level backing
   invariant: in every reachable state the pool holds at least the sum of the recorded stake of all
   validators that are not unstaked, unstaked validators record no stake, no stake is negative
   (App/PoolProofs.v; premises: distinct module addresses, no transaction signed by the pool's own
   address). The pool may hold MORE only through tokens sent to its address: in histories in which no send, DAO
   transfer or award names the pool's address as the recipient it holds EXACTLY the recorded stake, in every
   reachable state (App/PoolExact.v, C04_pool_holds_exactly_the_stake_all_histories). *)
From Coq Require Import List ZArith Lia.
From PM Require Import Store.KV App.Model App.BankProofs App.PosProofs App.IndexProofs App.PoolProofs App.PoolExact
  App.Examples App.Invariants App.KeyTypes App.KeyTypesMore.
Import ListNotations.
Local Open Scope Z_scope.

Theorem C04_stake_exact_partial s pk a amt s' : bank_ok s -> a <> m_pool (ma s) ->
  handle s (MStake pk a amt) = HOk s' ->
  p_min_stake (pp s) <= amt /\
  bal s' a = bal s a - amt /\ bal s' (m_pool (ma s)) = bal s (m_pool (ma s)) + amt /\ supply s' = supply s /\
  exists v', get_val s' a = Some v' /\ v_status v' = 2%N /\
    v_tokens v' = match get_val s a with Some v => v_tokens v | None => 0 end + amt.
Proof. exact (stake_exact s pk a amt s'). Qed.
Theorem C04_unstake_payout_conserves s a v s' : bank_ok s -> finish_unstaking s a v = Some s' -> bank_ok s'.
Proof. exact (finish_unstaking_pres s a v s'). Qed.
Theorem C04_force_unstake_conserves s a v s' : bank_ok s -> force_unstake s a v = Some s' -> bank_ok s'.
Proof. exact (force_unstake_pres s a v s'). Qed.
(* every reachable state of every history: the pool backs the recorded stake *)
Theorem C04_pool_backs_stake_all_histories MA ops s s' :
  pool_ok MA s -> Forall (op_ok MA) ops -> run ops s = Some s' -> pool_ok MA s'.
Proof. exact (run_pool MA ops s s'). Qed.
Theorem C04_pool_backs_stake_step MA s o s' : pool_ok MA s -> op_ok MA o -> step s o = Some s' -> pool_ok MA s'.
Proof. exact (step_pool MA s o s'). Qed.
Theorem C04_genesis MA s0 gvals dao s ups : ma s0 = MA -> bank_ok s0 -> vals_ok (vals s0) -> mods_distinct MA ->
  (forall g, In g gvals -> aget (vals s0) (g_addr g) = None) -> NoDup (map g_addr gvals) ->
  (forall g, In g gvals -> 0 <= snd g) -> ssum (vals s0) + gsum gvals <= bal s0 (m_pool MA) ->
  init_chain s0 gvals dao = Some (s, ups) -> pool_ok MA s.
Proof. exact (init_chain_pool MA s0 gvals dao s ups). Qed.
(* ... and not a token more, unless somebody sends coins to the pool's own address *)
Theorem C04_pool_holds_exactly_the_stake_all_histories MA ops s s' :
  px MA s -> Forall (op_nogift MA) ops -> run ops s = Some s' -> px MA s' /\ bal s' (m_pool MA) = ssum (vals s').
Proof. intros H F E. pose proof (run_px MA ops s s' H F E) as H'. split; [exact H'|]. exact (pool_holds_exactly_the_recorded_stake MA s' H'). Qed.
Theorem C04_exact_step MA s o s' : px MA s -> op_nogift MA o -> step s o = Some s' -> px MA s'.
Proof. exact (step_px MA s o s'). Qed.
Theorem C04_exact_genesis MA s0 gvals dao s ups : ma s0 = MA -> bank_ok s0 -> vals_ok (vals s0) -> mods_distinct MA ->
  (forall g, In g gvals -> aget (vals s0) (g_addr g) = None) -> NoDup (map g_addr gvals) ->
  (forall g, In g gvals -> 0 <= snd g) -> (forall g, In g gvals -> g_addr g <> m_pool MA) ->
  nv MA s0 -> na MA s0 -> ssum (vals s0) + gsum gvals = bal s0 (m_pool MA) ->
  init_chain s0 gvals dao = Some (s, ups) -> px MA s.
Proof. exact (init_chain_px MA s0 gvals dao s ups). Qed.
Example C04_ex_exact_premises : (exists s ups, ex_genesis = Some (s, ups) /\ px ex_ma s) /\ Forall (op_nogift ex_ma) ex_ops.
Proof.
  split.
  - apply ex_genesis_has. intros s ups E. apply (init_chain_px ex_ma ex_s0 [(A1, [11]%N, 2000000)] 500 s ups); [reflexivity|exact ex_s0_bank_ok| | | | | | | | | |exact E].
    + split; [exact I|]. intros a v Ea. discriminate Ea.
    + repeat split; discriminate.
    + intros g [<-|[]]. reflexivity.
    + repeat constructor. intros [].
    + intros g [<-|[]]. cbn. lia.
    + intros g [<-|[]]. discriminate.
    + reflexivity.
    + intros amt [].
    + reflexivity.
  - repeat constructor; cbn; try discriminate; auto.
Qed.
Theorem C04_pool_ok_reading MA s : pool_ok MA s ->
  (ssum (vals s) <= bal s (m_pool MA)) /\ (forall a v, get_val s a = Some v -> 0 <= v_tokens v /\ (v_status v = 0%N -> v_tokens v = 0)).
Proof. intros (_ & _ & V & _ & L). split; [exact L|]. intros a v E. exact (proj2 V a v E). Qed.
Example C04_ex_premises : (exists s ups, ex_genesis = Some (s, ups) /\ bank_ok s /\ idx_sound s /\ pool_ok ex_ma s /\ QueueProofs.queue_ok s)
  /\ Forall (op_ok ex_ma) ex_ops.
Proof. split; [exact ex_genesis_all_ok|exact ex_ops_signers_ok]. Qed.
Example C04_ex : match ex_genesis with
  | Some (s, _) => match handle s (MStake [22]%N A2 1500000) with
                   | HOk s' => bal s' POOL = 3500000 /\ bal s' A2 = 1500000 /\ option_map v_tokens (get_val s' A2) = Some 1500000
                   | _ => False end
  | None => False end.
Proof. vm_compute. repeat split; reflexivity. Qed.
(* both history-level statements when the consensus parameters admit ed25519 validator keys only (run_cp, App/KeyTypes.v) *)
Theorem C04_pool_backs_stake_under_key_restriction MA r ops s s' :
  pool_ok MA s -> Forall (op_ok MA) ops -> run_cp r ops s = Some s' -> pool_ok MA s'.
Proof. exact (run_cp_pool MA r ops s s'). Qed.
Theorem C04_pool_holds_exactly_the_stake_under_key_restriction MA r ops s s' :
  px MA s -> Forall (op_nogift MA) ops -> run_cp r ops s = Some s' -> px MA s'.
Proof. exact (run_cp_px MA r ops s s'). Qed.
Print Assumptions C04_pool_holds_exactly_the_stake_under_key_restriction.
Print Assumptions C04_stake_exact_partial.
Print Assumptions C04_pool_backs_stake_all_histories.
Print Assumptions C04_genesis.
Print Assumptions C04_pool_holds_exactly_the_stake_all_histories.
