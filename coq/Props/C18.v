(* C18 — Integer, decimal and coin arithmetic is exact and overflow-safe.
   Statements, each closed by a lemma of the proof files or a few lines on top of one. A Go panic is [None]. *)
From Coq Require Import List ZArith.
From PM Require Import Num.IntModel Num.IntProofs Num.DecModel Num.DecProofs Num.CoinsModel Num.CoinsProofs.
Import ListNotations.
Local Open Scope Z_scope.

(* Int / Uint: exact Z arithmetic inside the range, a panic exactly outside it *)
Theorem C18_int_add a b :
  (in_int (a + b) /\ int_add a b = Some (a + b)) \/ (~ in_int (a + b) /\ int_add a b = None).
Proof. exact (int_add_exact a b). Qed.
Theorem C18_int_sub a b :
  (in_int (a - b) /\ int_sub a b = Some (a - b)) \/ (~ in_int (a - b) /\ int_sub a b = None).
Proof. exact (int_sub_exact a b). Qed.
Theorem C18_int_mul a b : in_int a -> in_int b ->
  (in_int (a * b) /\ int_mul a b = Some (a * b)) \/ (~ in_int (a * b) /\ int_mul a b = None).
Proof. exact (int_mul_exact a b). Qed.
Theorem C18_int_quo a b : in_int a ->
  (b = 0 /\ int_quo a b = None) \/ (b <> 0 /\ int_quo a b = Some (Z.quot a b) /\ in_int (Z.quot a b)).
Proof. exact (int_quo_exact a b). Qed.
Theorem C18_int_mod a b : in_int b ->
  (b = 0 /\ int_mod a b = None) \/
  (b <> 0 /\ exists r, int_mod a b = Some r /\ 0 <= r < Z.abs b /\ (exists q, a = q * b + r) /\ in_int r).
Proof. exact (int_mod_exact a b). Qed.
Theorem C18_int_int64 a :
  (- 2 ^ 63 <= a < 2 ^ 63 /\ int_int64 a = Some a) \/ (~ (- 2 ^ 63 <= a < 2 ^ 63) /\ int_int64 a = None).
Proof. exact (int_int64_exact a). Qed.
Theorem C18_uint_add a b :
  (in_uint (a + b) /\ uint_add a b = Some (a + b)) \/ (~ in_uint (a + b) /\ uint_add a b = None).
Proof. exact (uint_add_exact a b). Qed.
Theorem C18_uint_sub a b :
  (in_uint (a - b) /\ uint_sub a b = Some (a - b)) \/ (~ in_uint (a - b) /\ uint_sub a b = None).
Proof. exact (uint_sub_exact a b). Qed.
Theorem C18_uint_mul a b :
  (in_uint (a * b) /\ uint_mul a b = Some (a * b)) \/ (~ in_uint (a * b) /\ uint_mul a b = None).
Proof. exact (uint_mul_exact a b). Qed.
Theorem C18_uint_quo a b : in_uint a -> in_uint b ->
  (b = 0 /\ uint_quo a b = None) \/ (b <> 0 /\ uint_quo a b = Some (a / b) /\ in_uint (a / b)).
Proof. exact (uint_quo_exact a b). Qed.
Theorem C18_tokens_to_power t : 0 <= t ->
  (t < 2 ^ 63 * 10 ^ 6 /\ tokens_to_power t = Some (t / 10 ^ 6)) \/
  (2 ^ 63 * 10 ^ 6 <= t /\ tokens_to_power t = None).
Proof. exact (tokens_to_power_exact t). Qed.

(* Dec: the rounding used by Mul, RoundInt, RoundInt64 is half-to-even for both signs,
   and it is the ONLY q with that property *)
Theorem C18_dec_round_is_half_even d : is_rhe d P (chop_round d).
Proof. exact (chop_round_spec d). Qed.
Theorem C18_dec_round_unique n q1 q2 : is_rhe n P q1 -> is_rhe n P q2 -> q1 = q2.
Proof. exact (round_half_even_unique n P q1 q2 P_pos). Qed.
Theorem C18_dec_round_sign_symmetric d : chop_round (- d) = - chop_round d.
Proof. exact (chop_round_opp d). Qed.
Theorem C18_dec_mul a b : dec_mul a b = dec_chk (round_half_even (a * b) P).
Proof. exact (dec_mul_exact a b). Qed.
Theorem C18_dec_mul_truncate a b : dec_mul_truncate a b = dec_chk (Z.quot (a * b) P).
Proof. exact (dec_mul_truncate_exact a b). Qed.
Theorem C18_dec_quo_truncate a b : b <> 0 -> dec_quo_truncate a b = dec_chk (Z.quot (a * P) b).
Proof. exact (dec_quo_truncate_exact a b). Qed.
Theorem C18_dec_round_up_is_ceiling d : chop_round_up d = ceil_div d P.
Proof. exact (chop_round_up_eq d). Qed.
Theorem C18_dec_ceil a : dec_ceil a = ceil_div a P * P.
Proof. exact (dec_ceil_exact a). Qed.
Theorem C18_dec_range z : (Z.abs z < 2 ^ 315 /\ dec_chk z = Some z) \/ (~ Z.abs z < 2 ^ 315 /\ dec_chk z = None).
Proof. exact (dec_chk_spec z). Qed.

(* Quo / QuoRoundUp: the full statement is FALSE of the code as it is (finding F9) ... *)
Theorem C18_dec_quo_refuted : exists a b, b <> 0 /\ dec_quo a b <> dec_chk (spec_quo a b).
Proof. exact dec_quo_refuted. Qed.
Theorem C18_dec_quo_round_up_refuted :
  exists a b, b <> 0 /\ dec_quo_round_up a b <> dec_chk (spec_quo_round_up a b).
Proof. exact dec_quo_round_up_refuted. Qed.
(* ... what is proved instead: they round the 36-digit truncated quotient, and Quo is exact
   whenever that 36-digit division is exact *)
Theorem C18_dec_quo_partial a b : b <> 0 ->
  dec_quo a b = dec_chk (round_half_even (Z.quot (a * P * P) b) P).
Proof. exact (dec_quo_partial a b). Qed.
Theorem C18_dec_quo_round_up_partial a b : b <> 0 ->
  dec_quo_round_up a b = dec_chk (ceil_div (Z.quot (a * P * P) b) P).
Proof. exact (dec_quo_round_up_partial a b). Qed.
Theorem C18_dec_quo_exact_when_divisible a b : 0 < b -> Z.rem (a * P * P) b = 0 ->
  dec_quo a b = dec_chk (spec_quo a b).
Proof. exact (dec_quo_exact_when_divisible a b). Qed.

Theorem C18_coins_add a b r : ssorted a -> ssorted b -> safe_add a b = Some r ->
  canon r /\ forall d, lookup r d = lookup a d + lookup b d.
Proof. exact (safe_add_canon a b r). Qed.
Theorem C18_coins_add_panics_only_on_overflow a b : ssorted a -> ssorted b ->
  (forall d, in_int (lookup a d + lookup b d)) -> exists r, safe_add a b = Some r.
Proof. exact (safe_add_total a b). Qed.
Theorem C18_coins_add_valid a b r : ssorted a -> all_pos a -> ssorted b -> all_pos b ->
  safe_add a b = Some r -> ssorted r /\ all_pos r.
Proof. exact (safe_add_valid_shape a b r). Qed.
Theorem C18_coins_add_sub_inverse a b s : ssorted a -> all_pos a -> all_int a -> ssorted b -> all_pos b ->
  safe_add a b = Some s -> coins_sub s b = Some a.
Proof. exact (add_sub_inverse a b s). Qed.
Theorem C18_coins_safe_sub a b r flag : ssorted a -> ssorted b -> safe_sub a b = Some (r, flag) ->
  canon r /\ (forall d, lookup r d = lookup a d - lookup b d) /\
  (flag = true <-> exists d, lookup a d - lookup b d < 0).
Proof. exact (safe_sub_spec a b r flag). Qed.
Theorem C18_coins_valid_is_canonical cs : coins_valid cs = true -> ssorted cs /\ all_pos cs.
Proof. exact (coins_valid_canon cs). Qed.
Theorem C18_coins_amount_of cs d : ssorted cs -> valid_denom d = true -> amount_of cs d = Some (lookup cs d).
Proof. exact (amount_of_spec cs d). Qed.
Theorem C18_coins_is_all_gte a b : ssorted a -> all_pos a -> ssorted b -> all_pos b ->
  (is_all_gte a b = true <-> forall d, lookup b d <= lookup a d).
Proof. exact (is_all_gte_spec a b). Qed.

Example C18_ex_mul_panics : int_mul (2 ^ 200) (2 ^ 60) = None /\ int_mul (2 ^ 200) (2 ^ 54) = Some (2 ^ 254).
Proof. split; vm_compute; reflexivity. Qed.
Example C18_ex_tie_to_even :
  chop_round (5 * 10 ^ 17) = 0 /\ chop_round (15 * 10 ^ 17) = 2 /\ chop_round (- (25 * 10 ^ 17)) = -2.
Proof. repeat split; vm_compute; reflexivity. Qed.
Example C18_ex_coins :
  let a := [([97;97;97]%N, 5); ([98;98;98]%N, 7)] in let b := [([97;97;97]%N, 5)] in
  coins_valid a = true /\ coins_valid b = true /\ coins_sub a b = Some [([98;98;98]%N, 7)] /\
  safe_sub b a = Some ([([98;98;98]%N, -7)], true).
Proof. repeat split; vm_compute; reflexivity. Qed.

Print Assumptions C18_int_mul.
Print Assumptions C18_dec_round_is_half_even.
Print Assumptions C18_dec_round_unique.
Print Assumptions C18_dec_quo_truncate.
Print Assumptions C18_dec_quo_refuted.
Print Assumptions C18_coins_add.
Print Assumptions C18_coins_add_sub_inverse.
Print Assumptions C18_coins_safe_sub.
Print Assumptions C18_coins_amount_of.
Print Assumptions C18_coins_is_all_gte.
