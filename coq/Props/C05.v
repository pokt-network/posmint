(* C05 — Validator updates keep Tendermint's set equal to the staked set.
   Statements, each closed by a lemma of the proof files or a few lines on top of one. *)
From Coq Require Import List ZArith.
From PM Require Import Base.Bytes Store.KV Store.MergeProofs App.Model App.Walk App.BankProofs App.KeyProofs
  App.IndexProofs App.PoolProofs App.UpdateProofs App.TmProofs App.Examples App.Invariants.
Import ListNotations.
Local Open Scope Z_scope.

(* the power index orders by (power, inverted address): walking it backwards gives power
   descending and, among equal powers, address ascending - the tie-break at the cut-off *)
Theorem C05_rank_key_order t1 a1 t2 a2 :
  0 <= power_of t1 < 2 ^ 64 -> 0 <= power_of t2 < 2 ^ 64 -> wf_bytes a1 -> wf_bytes a2 -> length a1 = length a2 ->
  bcompare (rank_key t1 a1) (rank_key t2 a2) = match power_of t1 ?= power_of t2 with Eq => bcompare a2 a1 | c => c end.
Proof. exact (rank_key_order t1 a1 t2 a2). Qed.
Theorem C05_rank_key_injective t1 a1 t2 a2 :
  0 <= power_of t1 < 2 ^ 64 -> 0 <= power_of t2 < 2 ^ 64 -> wf_bytes a1 -> wf_bytes a2 -> length a1 = length a2 ->
  rank_key t1 a1 = rank_key t2 a2 -> power_of t1 = power_of t2 /\ a1 = a2.
Proof. exact (rank_key_injective t1 a1 t2 a2). Qed.
Theorem C05_updates_conserve s s' ups : bank_ok s -> update_tm_validators s = Some (s', ups) -> bank_ok s'.
Proof. intros H E. exact (c_update _ _ bank_closed _ _ _ E H). Qed.
(* in every reachable state of every history, every entry of the power index (the candidates walked by
   UpdateTendermintValidators) is an existing validator that is staked, not jailed, under the key of its
   current stake: jailed, unstaking and unstaked validators are never offered to Tendermint *)
Theorem C05_index_entries_are_staked_unjailed_all_histories ops s s' k a :
  idx_sound s -> run ops s = Some s' -> aget (powidx s') k = Some a ->
  exists v, get_val s' a = Some v /\ v_status v = 2%N /\ v_jailed v = false /\ k = rank_key (v_tokens v) a.
Proof. intros H E. exact (indexed_is_staked_unjailed s' k a (run_is ops s s' H E)). Qed.
(* the batch returned by EndBlock / InitChain can always be applied to the set the module has told Tendermint
   so far (prevpow): no address twice, no negative power, a removal only of an address that set contains; and the
   module's record afterwards is that set with the batch applied *)
Theorem C05_updates_always_applicable s s' ups : idx_sound s -> (forall a v, get_val s a = Some v -> 0 <= v_tokens v) ->
  dsorted true (prevpow s) -> update_tm_validators s = Some (s', ups) ->
  applicable (prevpow s) ups /\ prevpow s' = apply_updates ups (prevpow s) /\ dsorted true (prevpow s').
Proof. exact (updates_applicable s s' ups). Qed.
(* ... and what that set IS afterwards: exactly the first MaxValidators entries of the power index walked from the top
   (by C05_rank_key_order: power descending, address ascending; by C06: exactly the staked unjailed validators), each
   with power floor(stake / 10^6); everybody else is absent *)
Theorem C05_set_is_the_top_of_the_index s s' ups : idx_sound s -> dsorted true (prevpow s) -> update_tm_validators s = Some (s', ups) ->
  let walked := map snd (firstn (Z.to_nat (p_max_validators (pp s))) (rev (powidx s))) in
  forall a, aget (prevpow s') a = if mem a walked then option_map (fun v => power_of (v_tokens v)) (get_val s a) else None.
Proof. exact (tm_set_is_top_of_index s s' ups). Qed.
(* the whole history, as Tendermint sees it: it starts with the set the module has on record and applies the batch of every
   EndBlock; then every batch of every EndBlock is applicable to the set it has at that moment, and after every EndBlock
   its set equals the module's record - which by C05_set_is_the_top_of_the_index is the top MaxValidators of the index.
   Nothing but EndBlock's update touches that record (App/TmProofs.v, App/Frames.v) *)
Theorem C05_whole_history_as_seen_by_tendermint MA ops s s' : tinv MA s -> Forall (op_ok MA) ops -> run ops s = Some s' ->
  tm_run ops s (prevpow s) s' (prevpow s') /\ tinv MA s'.
Proof. exact (history_as_seen_by_tendermint MA ops s s'). Qed.
Theorem C05_tm_run_reading_end s tm r s' tm' : tm_run (OEnd :: r) s tm s' tm' ->
  exists s1 ups, end_block s = Some (s1, ups) /\ applicable tm ups /\ tm_run r s1 (apply_updates ups tm) s' tm'.
Proof. intros H. inversion H; subst; [eauto|]. match goal with N : OEnd <> OEnd |- _ => contradiction end. Qed.
Example C05_ex_tinv : exists s ups, ex_genesis = Some (s, ups) /\ pool_ok ex_ma s /\ idx_sound s.
Proof. destruct ex_genesis_all_ok as (s & ups & E & _ & I & P & _). exists s, ups. auto. Qed.
Theorem C05_genesis_index_sound s0 gvals dao s ups :
  idx_sound s0 -> NoDup (map g_addr gvals) -> (forall g, In g gvals -> aget (vals s0) (g_addr g) = None) ->
  init_chain s0 gvals dao = Some (s, ups) -> idx_sound s.
Proof. exact (init_chain_is s0 gvals dao s ups). Qed.
Example C05_ex : match ex_genesis with Some (s, ups) => ups = [(A1, 2)] /\ aget (prevpow s) A1 = Some 2 | None => False end.
Proof. vm_compute. split; reflexivity. Qed.
Print Assumptions C05_rank_key_order.
Print Assumptions C05_rank_key_injective.
Print Assumptions C05_index_entries_are_staked_unjailed_all_histories.
Print Assumptions C05_updates_always_applicable.
Print Assumptions C05_set_is_the_top_of_the_index.
Print Assumptions C05_whole_history_as_seen_by_tendermint.
