(* C12 — Commit is durable and versions are readable.
   Statements, each closed by a lemma of the proof files or a few lines on top of one.
   Model (Store/RootMulti.v): the iavl library is its contract (SaveVersion / DeleteVersion one atomic batch
   each, LoadVersion(target) needs target). *)
From Coq Require Import List ZArith.
From PM Require Import Base.Bytes Store.KV Store.RootMulti Store.RootMultiProofs Store.QueryHistory Store.MultiCrash.
Import ListNotations.
Local Open Scope Z_scope.

(* a substore commit adds exactly the new version with exactly the working content ... *)
Theorem C12_new_version p t tf units : 0 <= keep_recent p -> vget (t_disk t) (t_ver t + 1) = None ->
  store_commit p t = Some (tf, units) ->
  t_ver tf = t_ver t + 1 /\ t_work tf = t_work t /\ vget (t_disk tf) (t_ver t + 1) = Some (t_work t).
Proof. intros _. exact (store_commit_new_version p t tf units). Qed.
(* ... removes exactly the version the pruning rule releases (an error, never wrong data, when read) ... *)
Theorem C12_released_version_unreadable p t tf units r : store_commit p t = Some (tf, units) ->
  to_release p (t_ver t + 1) = Some r -> vget (t_disk tf) r = None.
Proof. exact (store_commit_released_gone p t tf units r). Qed.
Theorem C12_release_rule p v r : to_release p v = Some r -> r = v - 1 - keep_recent p /\ keep_recent p < v - 1.
Proof. exact (to_release_lt p v r). Qed.
(* ... and leaves every other retained version exactly as it was committed *)
Theorem C12_retained_versions_untouched p t tf units h : store_commit p t = Some (tf, units) ->
  h <> t_ver t + 1 -> to_release p (t_ver t + 1) <> Some h -> vget (t_disk tf) h = vget (t_disk t) h.
Proof. exact (store_commit_keeps_other_versions p t tf units h). Qed.
(* writes to the working tree never touch what is on disk *)
Theorem C12_working_writes_do_not_touch_disk ts name f n t : In (n, t) (upd_tree ts name f) ->
  exists t0, In (n, t0) ts /\ t_disk t = t_disk t0 /\ t_ver t = t_ver t0.
Proof. exact (working_writes_do_not_touch_disk ts name f n t). Qed.
Example C12_ex :
  let ms0 := ms_init [[97]%N; [98]%N] {| keep_recent := 1; keep_every := 0 |} in
  let ms1 := ms_set ms0 [97]%N [1]%N [10]%N in
  match commit_in_order ms1 [] None with
  | Some (ms2, false) =>
    match commit_in_order (ms_set ms2 [97]%N [1]%N [11]%N) [[98]%N; [97]%N] None with
    | Some (ms3, false) =>
      match commit_in_order (ms_tset ms3 [116;114]%N [5]%N [5]%N) [] None with
      | Some (ms4, false) => fst (ms_last ms4) = 3 /\ ms_query ms4 [97]%N [1]%N 2 = QValue (Some [11]%N) /\
                             ms_query ms4 [97]%N [1]%N 1 = QNoVersion /\ ms_transient ms4 = [([116;114]%N, [])] /\
                             option_map (fun m => fst (ms_last m)) (reopen ms4) = Some 3
      | _ => False end
    | _ => False end
  | _ => False end.
Proof. vm_compute. repeat split; reflexivity. Qed.
(* THE WHOLE MULTISTORE, any number of substores: after a commit that ran to the end, stopping and reopening gives
   every substore at the new version with exactly the content its working tree had, and the commit id reported by
   Commit is the one the reopened store reports *)
Theorem C12_multistore_commit_durable ms ms' : 0 <= keep_recent (ms_prune ms) -> 0 <= fst (ms_last ms) ->
  NoDup (map fst (ms_trees ms)) ->
  (forall n t, In (n, t) (ms_trees ms) -> 0 <= t_ver t /\ vget (t_disk t) (t_ver t + 1) = None) ->
  commit ms None = Some (ms', false) ->
  exists ms2, reopen ms' = Some ms2 /\ ms_last ms2 = ms_last ms' /\ ms_latest ms2 = fst (ms_last ms) + 1 /\
    Forall2 (fun l nt => fst l = fst nt /\ t_work (snd l) = t_work (snd nt) /\ t_ver (snd l) = t_ver (snd nt) + 1)
            (ms_trees ms2) (ms_trees ms).
Proof. intros _. exact (multistore_commit_durable ms ms'). Qed.
(* over whole histories, any number of substores: a version that no pruning policy in force during the history ever
   releases stays readable with exactly the content committed at it, whatever is written, deleted, committed or
   re-configured afterwards (Store/QueryHistory.v); a released one is gone (C12_released_version_unreadable), and by
   C14_query_after_any_history nothing else can ever be read at that height *)
Theorem C12_retained_version_stays_readable h cs ops ms ms' name key c : h <> 0 ->
  policies_ok h (ms_prune ms) ops -> all_kept h cs (ms_trees ms) -> mrun ops ms = Some ms' ->
  find (fun p => beqb (fst p) name) cs = Some (name, c) -> ms_query ms' name key h = QValue (aget c key).
Proof. exact (retained_version_stays_readable h cs ops ms ms' name key c). Qed.
Theorem C12_kept_forever h cs ops ms ms' : policies_ok h (ms_prune ms) ops -> mrun ops ms = Some ms' ->
  all_kept h cs (ms_trees ms) -> all_kept h cs (ms_trees ms').
Proof. exact (mrun_kept h cs ops ms ms'). Qed.
Example C12_ex_keep_everything kr h : never_releases {| keep_recent := kr; keep_every := 1 |} h.
Proof. exact (keep_every_1_never_releases kr h). Qed.
Print Assumptions C12_new_version.
Print Assumptions C12_retained_version_stays_readable.
Print Assumptions C12_retained_versions_untouched.
Print Assumptions C12_released_version_unreadable.
Print Assumptions C12_multistore_commit_durable.
