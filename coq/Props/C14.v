(* C14 — Store queries return committed data.
   Statements, each closed by a lemma of the proof files or a few lines on top of one.
   Merkle proofs are an oracle of the model (soundness of IAVL range proofs and collision-freeness of the hashes
   are the library's contract); their verification against the app hash of EVERY height is checked on the
   implementation by the `ms` engine. *)
From Coq Require Import List ZArith.
From PM Require Import Base.Bytes Store.KV Store.RootMulti Store.RootMultiProofs Store.QueryHistory.
Import ListNotations.
Local Open Scope Z_scope.

(* a query at a height that is on disk returns exactly the value committed at that height ... *)
Theorem C14_query_reads_committed ms name key h t c : h <> 0 ->
  find (fun p => beqb (fst p) name) (ms_trees ms) = Some (name, t) -> vget (t_disk t) h = Some c ->
  ms_query ms name key h = QValue (aget c key).
Proof. intros Hh Ef Ev. rewrite (query_at_height ms name key h t Hh Ef), Ev. reflexivity. Qed.
(* ... whatever has been written to the working tree since, and whatever was committed later *)
Theorem C14_later_writes_irrelevant ts name f n t : In (n, t) (upd_tree ts name f) ->
  exists t0, In (n, t0) ts /\ t_disk t = t_disk t0 /\ t_ver t = t_ver t0.
Proof. exact (working_writes_do_not_touch_disk ts name f n t). Qed.
Theorem C14_later_commits_irrelevant p t tf units h : store_commit p t = Some (tf, units) ->
  h <> t_ver t + 1 -> to_release p (t_ver t + 1) <> Some h -> vget (t_disk tf) h = vget (t_disk t) h.
Proof. exact (store_commit_keeps_other_versions p t tf units h). Qed.
(* a pruned or future height yields no value (never data of another height) *)
Theorem C14_pruned_or_future_returns_nothing ms name key h t : h <> 0 ->
  find (fun p => beqb (fst p) name) (ms_trees ms) = Some (name, t) -> vget (t_disk t) h = None ->
  ms_query ms name key h = QNoVersion.
Proof. intros Hh Ef Ev. rewrite (query_at_height ms name key h t Hh Ef), Ev. reflexivity. Qed.
(* over whole histories, any number of substores: once height h holds content c in a substore, then after ANY
   sequence of writes, deletes, transient writes, pruning changes and commits a query at h answers with c's value or
   with "no such version" (pruned) - never with data of another height (Store/QueryHistory.v) *)
Theorem C14_query_after_any_history h cs ops ms ms' name key : h <> 0 ->
  all_frozen h cs (ms_trees ms) -> mrun ops ms = Some ms' ->
  match find (fun p => beqb (fst p) name) cs with
  | Some (_, c) => ms_query ms' name key h = QValue (aget c key) \/ ms_query ms' name key h = QNoVersion
  | None => ms_query ms' name key h = QNoStore
  end.
Proof. exact (query_after_any_history h cs ops ms ms' name key). Qed.
Theorem C14_frozen_forever h cs ops ms ms' : mrun ops ms = Some ms' -> all_frozen h cs (ms_trees ms) -> all_frozen h cs (ms_trees ms').
Proof. exact (mrun_frozen h cs ops ms ms'). Qed.
(* the premise holds for every height not above the substores' versions, with the contents on disk *)
Theorem C14_frozen_premise h ts : (forall n t, In (n, t) ts -> h <= t_ver t) ->
  all_frozen h (map (fun p => (fst p, match vget (t_disk (snd p)) h with Some c => c | None => [] end)) ts) ts.
Proof. exact (all_frozen_intro h ts). Qed.
(* a concrete history: two substores, pruning keeps one recent version; height 1 is answered with the value
   committed at 1 while it is retained and with "no such version" once released, never with the later values *)
Definition c14_a : bytes := [97]%N.  Definition c14_b : bytes := [98]%N.
Definition c14_ms1 := mrun [MSet c14_a [1]%N [10]%N; MSet c14_b [2]%N [20]%N; MCommit]
                           (ms_init [c14_a; c14_b] {| keep_recent := 1; keep_every := 0 |}).
Example C14_ex_history : match c14_ms1 with
  | Some ms1 =>
    ms_query ms1 c14_a [1]%N 1 = QValue (Some [10]%N) /\
    match mrun [MSet c14_a [1]%N [11]%N; MCommit] ms1 with
    | Some ms2 => ms_query ms2 c14_a [1]%N 1 = QValue (Some [10]%N) /\ ms_query ms2 c14_a [1]%N 2 = QValue (Some [11]%N) /\
      match mrun [MDelete c14_a [1]%N; MCommit] ms2 with
      | Some ms3 => ms_query ms3 c14_a [1]%N 1 = QNoVersion /\ ms_query ms3 c14_a [1]%N 2 = QValue (Some [11]%N)
                    /\ ms_query ms3 c14_a [1]%N 3 = QValue None
      | None => False end
    | None => False end
  | None => False end.
Proof. vm_compute. repeat split; reflexivity. Qed.
Print Assumptions C14_query_reads_committed.
Print Assumptions C14_query_after_any_history.
Print Assumptions C14_later_commits_irrelevant.
