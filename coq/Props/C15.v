(* C15 — Cache-wrapped stores behave like an overlay that is applied atomically.
   Statements, each closed by a lemma of the proof files or a few lines on top of one. *)
From Coq Require Import List NArith.
From PM Require Import Store.KV Store.MergeProofs Store.KVProofs Store.DirtyProofs.
Import ListNotations.

(* iteration: the merge iterator state machine (skipUntilExistsOrInvalid/Key/Value/Next as
   coded) always terminates and returns the overlay of the parent items with the cache items:
   sorted in the iteration direction (so duplicate-free), deleted keys absent, cache value
   wins. For any range: the two inputs are the in-range items of parent and cache. *)
Theorem C15_merge_iterator_total asc par cac : exists l, merge_run par cac asc = Some l.
Proof. exact (merge_iterator_total asc par cac). Qed.
Theorem C15_merge_iterator_is_overlay asc par cac l :
  dsorted asc par -> dsorted asc cac -> merge_run par cac asc = Some l ->
  dsorted asc l /\ forall k, assoc l k = overlay_at par cac k.
Proof. exact (merge_iterator_is_overlay asc par cac l). Qed.

(* reads and writes on a nest of cache stores of any depth over a base map *)
Theorem C15_get s k w : nest_ok s ->
  exists s', s_get s k w = (Ok (aget (abs s) k), s', w) /\ nest_ok s' /\ abs s' = abs s.
Proof. exact (get_refines s k w). Qed.
Theorem C15_set s k v w : nest_ok s ->
  exists s', s_set s k v w = (Ok tt, s', w) /\ nest_ok s' /\ abs s' = aset (abs s) k v /\
    match s, s' with Cache _ p, Cache _ p' => p' = p | _, _ => True end.
Proof. exact (set_refines s k v w). Qed.
Theorem C15_delete s k w : nest_ok s ->
  exists s', s_delete s k w = (Ok tt, s', w) /\ nest_ok s' /\ abs s' = adel (abs s) k /\
    match s, s' with Cache _ p, Cache _ p' => p' = p | _, _ => True end.
Proof. exact (delete_refines s k w). Qed.
(* Write: afterwards the parent holds exactly the overlaid view and the wrapper is clean *)
Theorem C15_write c p w : nest_ok (Cache c p) ->
  exists p', c_write (Cache c p) w = (Ok tt, Cache c_empty p', w) /\ nest_ok (Cache c_empty p') /\
    abs p' = abs (Cache c p) /\ abs (Cache c_empty p') = abs (Cache c p).
Proof. exact (write_refines c p w). Qed.
(* the view of a cache store at a key: its own entry if it has one, else the parent's *)
Theorem C15_view c m k : cache_ok c m -> dsorted true m -> aget (cache_abs c m) k = view c m k.
Proof. exact (cache_abs_view c m k). Qed.

(* what cachekv.iterator hands to the merge iterator - dirtyItems (unsorted cache -> sorted linked list, stale
   entries replaced) followed by newMemIterator's scan - is EXACTLY the dirty entries of the cache in the range,
   in iteration order, with their current values; [dinv] is the invariant of (cache, unsortedCache, sortedCache) *)
Theorem C15_cache_items_are_the_dirty_entries c s e asc : dinv c ->
  mem_items (dirty_items c s e) s e asc = dir asc (filter (fun it => in_domain (fst it) s e) (dlist c)).
Proof. exact (mem_items_are_the_dirty_entries c s e asc). Qed.
(* iterating a nest of cache stores of any depth, any range, either direction: exactly the in-range items of the
   overlaid view, in order; the parent is untouched and the invariants are kept *)
Theorem C15_iterator_is_the_overlaid_view s st en asc w : nest_ok s -> dnest s ->
  exists l s', s_iter s st en asc w = (Ok (IList l), s', w) /\ l = kv_range (abs s) st en asc /\
               nest_ok s' /\ dnest s' /\ abs s' = abs s.
Proof. exact (iter_refines s st en asc w). Qed.
(* the structural invariant is kept by every other operation as well *)
Theorem C15_structure_kept_by_get s k w r s' w' : dnest s -> s_get s k w = (r, s', w') -> dnest s'.
Proof. exact (s_get_dnest s k w r s' w'). Qed.
Theorem C15_structure_kept_by_has s k w r s' w' : dnest s -> s_has s k w = (r, s', w') -> dnest s'.
Proof. exact (s_has_dnest s k w r s' w'). Qed.
Theorem C15_structure_kept_by_set s k v w r s' w' : dnest s -> s_set s k v w = (r, s', w') -> dnest s'.
Proof. exact (s_set_dnest s k v w r s' w'). Qed.
Theorem C15_structure_kept_by_delete s k w r s' w' : dnest s -> s_delete s k w = (r, s', w') -> dnest s'.
Proof. exact (s_delete_dnest s k w r s' w'). Qed.
Theorem C15_structure_kept_by_write s w r s' w' : dnest s -> c_write s w = (r, s', w') -> dnest s'.
Proof. exact (c_write_dnest s w r s' w'). Qed.
Example C15_ex_dnest : dnest (Cache c_empty (Cache c_empty (Base [([1], [10]); ([2], [20]); ([3], [30])]%N))).
Proof. simpl. split; [exact dinv_empty|split; [exact dinv_empty|exact I]]. Qed.

Example C15_ex_nest_ok :
  nest_ok (Cache c_empty (Cache c_empty (Base [([1], [10]); ([2], [20]); ([3], [30])]%N))).
Proof.
  assert (E : forall m, cache_ok c_empty m) by (intros m; split; [exact I|intros k e H; discriminate H]).
  simpl. split; [split; [|apply E]|apply E].
  repeat split; intros y Hy; repeat (destruct Hy as [<-|Hy]; [reflexivity|]); destruct Hy.
Qed.
Example C15_ex_run :
  let m := [([1], [10]); ([2], [20]); ([3], [30])]%N in
  let s0 := Cache c_empty (Cache c_empty (Base m)) in
  let w := {| w_limit := None; w_consumed := 0; w_trace := []; w_cfg := kv_gas_config |} in
  let '(_, s1, _) := s_delete s0 [2]%N w in
  let '(_, s2, _) := s_set s1 [4]%N [40]%N w in
  let '(r, s3, _) := s_iter_all s2 [] None false w in
  r = Ok [([4], [40]); ([3], [30]); ([1], [10])]%N /\
  let '(_, s4, _) := c_write s3 w in
  match s4 with Cache _ p => abs p = [([1], [10]); ([3], [30]); ([4], [40])]%N | _ => False end.
Proof. vm_compute. split; reflexivity. Qed.

Print Assumptions C15_merge_iterator_is_overlay.
Print Assumptions C15_merge_iterator_total.
Print Assumptions C15_cache_items_are_the_dirty_entries.
Print Assumptions C15_iterator_is_the_overlaid_view.
Print Assumptions C15_get.
Print Assumptions C15_set.
Print Assumptions C15_write.
