(* C03 — Only the signer's key authorises a transaction. Over the ideal-signature abstraction:
   a signature is a record of which key signed which sign doc ([t_mutated] = a signed field was
   changed afterwards). Statements, each closed by a lemma of the proof files or a few lines on top of one. *)
From Coq Require Import List ZArith.
From PM Require Import App.Model App.TxProofs App.Examples.
Import ListNotations.
Local Open Scope Z_scope.

Theorem C03_accept s t s' : ante s t = Some s' ->
  exists ka, key_used s t = Some ka /\ ka = msg_signer (t_msg t) /\ t_signed_by t = ka /\ t_mutated t = false /\
    t_in_index t = false /\ required_fee s (t_gov_fee t) (t_msg t) <= t_fee t /\ t_memo_len t <= a_max_memo (ap s) /\
    bank_send s (msg_signer (t_msg t)) (m_fee (ma s)) (t_fee t) = Some s'.
Proof. exact (ante_accept s t s'). Qed.
Theorem C03_forgery_rejected s t :
  (forall ka, key_used s t = Some ka -> t_signed_by t <> ka) \/ t_mutated t = true -> ante s t = None.
Proof. exact (ante_rejects_forgery s t). Qed.
(* the key - attached to the signature, or the one on the account's record, whoever's it is - must be the signer's own *)
Theorem C03_foreign_key_rejected s t ka : key_used s t = Some ka -> ka <> msg_signer (t_msg t) -> ante s t = None.
Proof. exact (ante_rejects_foreign_key s t ka). Qed.
Theorem C03_replay_rejected s t : t_in_index t = true -> ante s t = None.
Proof. exact (ante_rejects_replay s t). Qed.
Example C03_ex : match ex_genesis with
  | Some (s, _) => ante s (ex_tx (MSend A1 A3 10) A2 0) = None /\ ante s (ex_tx (MSend A1 A3 10) A1 0) <> None
  | None => False end.
Proof. vm_compute. split; [reflexivity|discriminate]. Qed.
Print Assumptions C03_accept.
Print Assumptions C03_forgery_rejected.
