(* C11 — Rejected transactions leave no trace.
   Statements, each closed by a lemma of the proof files or a few lines on top of one. *)
From Coq Require Import List ZArith Bool.
From PM Require Import App.Model App.BankProofs App.TxProofs App.KeyTypes App.Examples.
Import ListNotations.
Local Open Scope Z_scope.

(* undecodable / basic-invalid / ante-refused: the state is exactly what it was *)
Theorem C11_rejected_unchanged s t s' : deliver_tx s t = DRejected s' -> s' = s.
Proof. exact (rejected_unchanged s t s'). Qed.
(* a failing handler has written nothing (every handler validates before its first write) ... *)
Theorem C11_handler_err_unchanged s m s' : bank_ok s -> 0 <= p_min_stake (pp s) -> handle s m = HErr s' -> s' = s.
Proof. intros _. exact (handler_err_unchanged s m s'). Qed.
(* ... so the transaction has paid its fee and changed nothing else *)
Theorem C11_handler_err_pays_fee_only s t s' : bank_ok s -> 0 <= p_min_stake (pp s) ->
  deliver_tx s t = DHandlerErr s' -> ante s t = Some s'.
Proof. intros _. exact (handler_err_pays_fee_only s t s'). Qed.
(* the same two statements when the consensus parameters admit ed25519 validator keys only (deliver_tx_cp true), and the
   refusal itself: a first-time stake under another key type pays its fee and leaves nothing else *)
Theorem C11_cp_rejected_unchanged r s t s' : deliver_tx_cp r s t = DRejected s' -> s' = s.
Proof. exact (cp_rejected_unchanged r s t s'). Qed.
Theorem C11_cp_handler_err_pays_fee_only r s t s' : bank_ok s -> 0 <= p_min_stake (pp s) ->
  deliver_tx_cp r s t = DHandlerErr s' -> ante s t = Some s'.
Proof. intros _. exact (cp_handler_err_pays_fee_only r s t s'). Qed.
Theorem C11_cp_refuses_other_key_types s t pk a amt s1 : t_msg t = MStake pk a amt -> ed25519_key pk = false ->
  ante s t = Some s1 -> get_val s1 a = None ->
  negb (msg_basic_ok (t_msg t)) || (t_fee t <? 0) || t_sig_empty t = false ->
  deliver_tx_cp true s t = DHandlerErr s1.
Proof. exact (cp_refuses_other_key_types s t pk a amt s1). Qed.
Theorem C11_cp_is_deliver_tx_without_the_restriction s t : deliver_tx_cp false s t = deliver_tx s t.
Proof. exact (deliver_tx_cp_unrestricted s t). Qed.
Example C11_ex : match ex_genesis with
  | Some (s, _) => deliver_tx s (ex_tx (MSend A1 A3 10) A2 0) = DRejected s /\
                   match deliver_tx s (ex_tx (MUnjail A1) A1 0) with DHandlerErr s1 => supply s1 = supply s | _ => False end
  | None => False end.
Proof. vm_compute. split; reflexivity. Qed.
Print Assumptions C11_rejected_unchanged.
Print Assumptions C11_handler_err_pays_fee_only.
Print Assumptions C11_cp_handler_err_pays_fee_only.
Print Assumptions C11_cp_refuses_other_key_types.
