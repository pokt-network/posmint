(* C08 — Downtime accounting: sliding window is exact.
   Statements, each closed by a lemma of the proof files or a few lines on top of one.
   The required-signed threshold is the half-even rounding of fraction * window (incl. 0.5 * odd).
   The ring buffer update rule of handleValidatorSignature (flip the bit at offset mod W, move the
   counter only when the bit changes) IS a sliding window, for every window size and every vote sequence
   (App/RingProofs.v): the counter equals the misses among the most recent min(n, W) votes and the array holds
   exactly those votes; and handle_signature applies exactly this rule to the stored bits / counter / offset, or
   resets them when it jails (App/RingTie.v). Over whole histories (App/MissedProofs.v): in every reachable state
   the counter of every validator equals the number of missed entries stored in its bit array - through votes,
   downtime jailing (array and counter cleared together), double signs, (re-)staking, every transaction, rewards,
   burns and EndBlock. Left to the test oracle and the correspondence check (not a Coq theorem): "jailed at exactly the
   first crossing after start+W" as a statement about whole vote histories. *)
From Coq Require Import List ZArith Bool.
From PM Require Import Store.KV Store.MergeProofs Num.DecModel App.Model App.Walk App.BankProofs App.PosProofs
  App.RingProofs App.RingTie App.MissedProofs App.KeyTypes App.KeyTypesMore App.Examples.
Import ListNotations.
Local Open Scope Z_scope.

Theorem C08_threshold_partial p : min_signed_per_window p = round_half_even (p_min_signed p * p_window p) P.
Proof. exact (min_signed_is_half_even p). Qed.
Theorem C08_signature_handling_conserves s a p sg s' : bank_ok s -> handle_signature s a p sg = Some s' -> bank_ok s'.
Proof. intros H E. exact (c_vote _ _ bank_closed _ _ _ _ _ E H). Qed.
(* the ring buffer is a sliding window: for all W >= 1 and all vote sequences (true = missed) *)
Theorem C08_ring_buffer_is_sliding_window W votes : (0 < W)%nat ->
  ring_inv W (fold_left (ring_step W) votes ring0) (rev votes).
Proof. exact (ring_is_sliding_window W votes). Qed.
Theorem C08_counter_is_misses_in_window W votes : (0 < W)%nat ->
  snd (fst (fold_left (ring_step W) votes ring0)) = cnt (firstn W (rev votes)).
Proof. exact (ring_counter_is_window_misses W votes). Qed.
(* ... and handleValidatorSignature applies exactly that rule to the validator's stored bit array, counter and
   offset - or, when the threshold is crossed (slash + jail), resets them to the empty ring so that the same misses
   are not punished again *)
Theorem C08_one_vote_is_one_ring_step s a p sg s' si :
  dsorted true (missed s) -> dsorted true (sinfo s) -> aget (sinfo s) a = Some si -> 0 <= si_offset si ->
  0 < p_window (pp s) < 256 ^ 8 -> handle_signature s a p sg = Some s' ->
  exists si', aget (sinfo s') a = Some si' /\
    (ring_eq (Z.to_nat (p_window (pp s))) (ring_of (missed s') a si')
             (ring_step (Z.to_nat (p_window (pp s))) (ring_of (missed s) a si) (negb sg)) \/
     ring_eq (Z.to_nat (p_window (pp s))) (ring_of (missed s') a si') ring0).
Proof. intros _ _. exact (handle_signature_is_ring_step s a p sg s' si). Qed.
(* every reachable state of every history whose staking addresses have one fixed length L (20 in the implementation) *)
Theorem C08_counter_equals_stored_misses_all_histories L ops s s' : missed_ok L s -> Forall (op_len_ok L) ops ->
  run ops s = Some s' -> missed_ok L s'.
Proof. exact (run_mok L ops s s'). Qed.
Theorem C08_counter_reading L s a si : missed_ok L s -> aget (sinfo s) a = Some si ->
  si_missed si = Z.of_nat (length (filter (fun p => snd p && key_of a (fst p)) (missed s))).
Proof. exact (counter_is_the_number_of_missed_entries L s a si). Qed.
Theorem C08_genesis L s0 gvals dao s ups : missed_ok L s0 -> NoDup (map (fun g => fst (fst g)) gvals) ->
  (forall g, In g gvals -> length (fst (fst g)) = L /\ aget (sinfo s0) (fst (fst g)) = None) ->
  init_chain s0 gvals dao = Some (s, ups) -> missed_ok L s.
Proof. exact (init_chain_mok L s0 gvals dao s ups). Qed.
Example C08_ex_premises : missed_ok 2 ex_s0 /\ Forall (op_len_ok 2) ex_ops /\
  (exists s ups, ex_genesis = Some (s, ups) /\ missed_ok 2 s).
Proof.
  assert (H0 : missed_ok 2 ex_s0).
  { split; [exact I|]. split; [exact I|]. split; [intros a si E; discriminate E|]. intros a _ _. reflexivity. }
  split; [exact H0|]. split; [repeat constructor|].
  apply ex_genesis_has. intros s ups E. eapply C08_genesis; [exact H0| | |exact E].
  - repeat constructor. intros [].
  - intros g [<-|[]]. split; reflexivity.
Qed.
Example C08_ex_ring : snd (fst (fold_left (ring_step 3) [true; true; false; true; false; false] ring0)) = 1.
Proof. vm_compute. reflexivity. Qed.
Example C08_ex_half_of_odd_window :
  min_signed_per_window {| p_unstaking_time := 0; p_max_validators := 1; p_min_stake := 0; p_max_evidence_age := 0;
     p_window := 5; p_min_signed := 500000000000000000; p_downtime_jail := 0; p_slash_ds := 0; p_slash_dt := 0 |} = 2 /\
  min_signed_per_window {| p_unstaking_time := 0; p_max_validators := 1; p_min_stake := 0; p_max_evidence_age := 0;
     p_window := 7; p_min_signed := 500000000000000000; p_downtime_jail := 0; p_slash_ds := 0; p_slash_dt := 0 |} = 4.
Proof. split; vm_compute; reflexivity. Qed.
(* the stored key of a window position: every position of the int64 range has its own key, and validators (addresses of one
   length) never share one - what the counter-equals-stored-misses theorem silently relies on, compared with
   GetValMissedBlockKey by the KM stream *)
Theorem C08_window_positions_have_their_own_keys a i j : 0 <= i < 256 ^ 8 -> 0 <= j < 256 ^ 8 ->
  missed_key a i = missed_key a j -> i = j.
Proof. exact (missed_key_inj a i j). Qed.
Theorem C08_validators_never_share_a_position_key a b i j : length a = length b -> 0 <= i < 256 ^ 8 -> 0 <= j < 256 ^ 8 ->
  missed_key a i = missed_key b j -> a = b /\ i = j.
Proof. exact (missed_key_inj2 a b i j). Qed.
(* counter = stored misses in every history under the key-type restriction as well *)
Theorem C08_counter_equals_stored_misses_under_key_restriction L r ops s s' :
  missed_ok L s -> Forall (op_len_ok L) ops -> run_cp r ops s = Some s' -> missed_ok L s'.
Proof. exact (run_cp_mok L r ops s s'). Qed.
Print Assumptions C08_counter_equals_stored_misses_under_key_restriction.
Print Assumptions C08_validators_never_share_a_position_key.
Print Assumptions C08_threshold_partial.
Print Assumptions C08_ring_buffer_is_sliding_window.
Print Assumptions C08_one_vote_is_one_ring_step.
Print Assumptions C08_counter_equals_stored_misses_all_histories.
