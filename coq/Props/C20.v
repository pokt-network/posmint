(* C20 — Encodings round-trip, sign bytes are canonical, malformed input is refused.
   Statements, each closed by a lemma of the proof files or a few lines on top of one.
   What is stated here (and proved in the Codec files) is the byte-level logic the property rests on: the uvarint
   length prefix of amino frames, the decoders' range checks for Int/Uint text, canonical JSON (the sign bytes) and
   the store keys.  The reflection-driven amino struct codec itself (go-amino) is not modelled: its round trips and
   its behaviour on hostile bytes are decided by the correspondence/oracle streams of the `codec` engine only -
   the property is therefore labelled partial for that part (DESIGN.md). *)
From Coq Require Import List ZArith Permutation.
From PM Require Import Base.Bytes Num.IntModel Num.IntProofs App.Model App.KeyProofs Codec.CodecModel
  Codec.CodecProofs Codec.DecText.
Import ListNotations.
Local Open Scope Z_scope.

(* length-prefixed frames decode back to the payload and the untouched remainder *)
Theorem C20_uvarint_roundtrip z rest : 0 <= z < 2 ^ 64 -> uvarint_decode (uvarint z ++ rest) = Some (z, rest).
Proof. exact (uvarint_roundtrip z rest). Qed.
Theorem C20_frame_roundtrip bare rest : Z.of_nat (length bare) < 2 ^ 64 -> unframe (frame bare ++ rest) = Some (bare, rest).
Proof. exact (frame_roundtrip bare rest). Qed.

(* Int / Uint text decoders accept exactly the representable range (malformed = out of range is refused) *)
Theorem C20_int_unmarshal z : (in_int z /\ int_unmarshal z = Some z) \/ (~ in_int z /\ int_unmarshal z = None).
Proof. exact (int_unmarshal_exact z). Qed.
Theorem C20_uint_unmarshal z : (in_uint z /\ uint_unmarshal z = Some z) \/ (~ in_uint z /\ uint_unmarshal z = None).
Proof. exact (uint_unmarshal_exact z). Qed.

(* the text form of a decimal (Dec.String: eighteen fractional digits, zero padding and placement of the point done by
   hand) parses back (NewDecFromStr) to exactly the same value, for every value *)
Theorem C20_dec_text_roundtrip z : text_to_dec (dec_to_text z) = Some z.
Proof. exact (dec_text_roundtrip z). Qed.

(* sign bytes: the same logical content gives the same bytes ... *)
Theorem C20_object_field_order_irrelevant l1 l2 :
  NoDup (map fst l1) -> Permutation l1 l2 -> sort_json (JObj l1) = sort_json (JObj l2).
Proof. intros N P. unfold sort_json. f_equal. exact (canon_perm l1 l2 N P). Qed.
Theorem C20_same_content_same_canonical_object l1 l2 :
  (forall k, clook l1 k = clook l2 k) -> sort_json (JObj l1) = sort_json (JObj l2).
Proof. intros E. unfold sort_json. f_equal. exact (canon_obj_ext l1 l2 E). Qed.
Theorem C20_sign_bytes_canonical c e m f g f' g' :
  canon f = canon f' -> canon g = canon g' -> sign_bytes c e m f g = sign_bytes c e m f' g'.
Proof. exact (sign_bytes_canonical c e m f g f' g'). Qed.
(* ... and different content gives different bytes (chain id, entropy, memo, fee, message) *)
Theorem C20_sign_bytes_injective c e m f g c' e' m' f' g' :
  wf_bytes c -> wf_bytes e -> wf_bytes m -> json_wf f -> json_wf g ->
  wf_bytes c' -> wf_bytes e' -> wf_bytes m' -> json_wf f' -> json_wf g' ->
  sign_bytes c e m f g = sign_bytes c' e' m' f' g' ->
  c = c' /\ e = e' /\ m = m' /\ canon f = canon f' /\ canon g = canon g'.
Proof. exact (sign_bytes_injective c e m f g c' e' m' f' g'). Qed.
Theorem C20_render_injective j1 j2 : json_wf j1 -> json_wf j2 -> render j1 = render j2 -> j1 = j2.
Proof. exact (render_injective j1 j2). Qed.

(* keys order the way the values do, and decode back to them *)
Theorem C20_rank_key_order t1 a1 t2 a2 :
  0 <= power_of t1 < 2 ^ 64 -> 0 <= power_of t2 < 2 ^ 64 -> wf_bytes a1 -> wf_bytes a2 -> length a1 = length a2 ->
  bcompare (rank_key t1 a1) (rank_key t2 a2) = match power_of t1 ?= power_of t2 with Eq => bcompare a2 a1 | c => c end.
Proof. exact (rank_key_order t1 a1 t2 a2). Qed.
Theorem C20_rank_key_injective t1 a1 t2 a2 :
  0 <= power_of t1 < 2 ^ 64 -> 0 <= power_of t2 < 2 ^ 64 -> wf_bytes a1 -> wf_bytes a2 -> length a1 = length a2 ->
  rank_key t1 a1 = rank_key t2 a2 -> power_of t1 = power_of t2 /\ a1 = a2.
Proof. exact (rank_key_injective t1 a1 t2 a2). Qed.
Theorem C20_time_key_order a b : tfields_ok a -> tfields_ok b -> bcompare (time_text a) (time_text b) = tfields_compare a b.
Proof. exact (time_text_order a b). Qed.
Theorem C20_time_key_injective a b : tfields_ok a -> tfields_ok b -> time_text a = time_text b -> a = b.
Proof. exact (time_text_injective a b). Qed.

Example C20_ex_uvarint : uvarint 300 = [172; 2]%N /\ uvarint_decode [172; 2; 7]%N = Some (300, [7%N]).
Proof. vm_compute. split; reflexivity. Qed.
Example C20_ex_overlong : uvarint_decode [255; 255; 255; 255; 255; 255; 255; 255; 255; 2]%N = None.
Proof. vm_compute. reflexivity. Qed.
Example C20_ex_canon :
  sort_json (JObj [([98]%N, JStr [34; 60]%N); ([97]%N, JArr [JNull; JBool true]); ([98]%N, JStr [120]%N)])
  = [123; 34; 97; 34; 58; 91; 110; 117; 108; 108; 44; 116; 114; 117; 101; 93; 44; 34; 98; 34; 58; 34; 120; 34; 125]%N.
Proof. vm_compute. reflexivity. Qed.
Example C20_ex_time : tfields_ok {| t_year := 2020; t_month := 9; t_day := 13; t_hour := 12; t_min := 26; t_sec := 40; t_nano := 5 |}
  /\ time_text {| t_year := 2020; t_month := 9; t_day := 13; t_hour := 12; t_min := 26; t_sec := 40; t_nano := 5 |}
     = [50;48;50;48;45;48;57;45;49;51;84;49;50;58;50;54;58;52;48;46;48;48;48;48;48;48;48;48;53]%N.
Proof. split; [unfold tfields_ok; cbn; repeat split; discriminate || reflexivity|vm_compute; reflexivity]. Qed.
Print Assumptions C20_uvarint_roundtrip.
Print Assumptions C20_frame_roundtrip.
Print Assumptions C20_int_unmarshal.
Print Assumptions C20_uint_unmarshal.
Print Assumptions C20_dec_text_roundtrip.
Print Assumptions C20_object_field_order_irrelevant.
Print Assumptions C20_same_content_same_canonical_object.
Print Assumptions C20_sign_bytes_canonical.
Print Assumptions C20_sign_bytes_injective.
Print Assumptions C20_render_injective.
Print Assumptions C20_rank_key_order.
Print Assumptions C20_rank_key_injective.
Print Assumptions C20_time_key_order.
Print Assumptions C20_time_key_injective.
