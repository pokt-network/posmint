(* C01 — Replicated execution is deterministic.
   Statements, each closed by a lemma of the proof files or a few lines on top of one.
   The models are Gallina functions, hence deterministic; the content is that the implementation's
   sources of nondeterminism do not reach the observables. The one that lies inside the modelled
   code is Go's map iteration over the substores at Commit: the commit hash must not depend on it.
   The others (validator decode cache, goroutine-driven IAVL iterator, restart, read-only
   traffic) are checked on the implementation by replaying every history on a fresh, a restarted
   and a CheckTx/Simulate/Query-interleaved instance (bin/props/C01.py). *)
From Coq Require Import List ZArith Permutation.
From PM Require Import Store.KV Store.MergeProofs Store.RootMulti Store.RootMultiProofs App.Model.
Import ListNotations.
Local Open Scope Z_scope.

(* the app hash is a function of the name-sorted substore commit ids: any commit order gives the same *)
Theorem C01_commit_hash_order_independent l l' : Permutation l l' -> NoDup (names l) -> sort_infos l = sort_infos l'.
Proof. exact (commit_hash_order_independent l l'). Qed.
(* the model's step is a function: equal states and equal requests give equal results (trivially so in Gallina; on the implementation it is what the replays check) *)
Theorem C01_step_functional s o : forall r1 r2, step s o = r1 -> step s o = r2 -> r1 = r2.
Proof. intros r1 r2 <- <-. reflexivity. Qed.
(* no-longer-staked validators are reported in address order whatever order the map yields them:
   the model keeps them in a sorted association list, and adel/aset keep it sorted *)
Theorem C01_prevstate_map_stays_sorted (m : amap Z) k v : dsorted true m -> dsorted true (aset m k v) /\ dsorted true (adel m k).
Proof. intros S. split; [apply KVProofs.aset_sorted|apply KVProofs.adel_sorted]; exact S. Qed.
Example C01_ex_order :
  sort_infos [([98]%N, (1, [])); ([97]%N, (1, [([1]%N, [2]%N)]))] = sort_infos [([97]%N, (1, [([1]%N, [2]%N)])); ([98]%N, (1, []))].
Proof. vm_compute. reflexivity. Qed.
Print Assumptions C01_commit_hash_order_independent.
