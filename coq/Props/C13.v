(* C13 — A crash during Commit never corrupts the store.
   Statements, each closed by a lemma of the proof files or a few lines on top of one.
   The crash points are enumerated IN the theorems: [units] are a substore's atomic write batches, a crash
   leaves any prefix of them on disk; for the multistore the crash budget counts the units over all substores. Physical atomicity of one tm-db batch is
   the library's contract (hypothesis of the model). *)
From Coq Require Import List ZArith Bool.
From PM Require Import Store.RootMulti Store.RootMultiProofs Store.MultiCrash.
Import ListNotations.
Local Open Scope Z_scope.

(* with keepRecent >= 1: after ANY prefix of a substore's write units the previous version loads
   with exactly its old content (the root, whose flush is the last unit, still points at it) *)
Theorem C13_substore_crash_safe p t old tf units : 1 <= keep_recent p -> tree_ok t old ->
  store_commit p t = Some (tf, units) ->
  forall u, In u (t :: units) -> load_version (t_disk u) (t_ver t) =
    (if t_ver t =? 0 then load_version (t_disk u) 0 else Some {| t_disk := t_disk u; t_work := old; t_ver := t_ver t |}).
Proof. exact (store_commit_crash_safe p t old tf units). Qed.
(* THE WHOLE MULTISTORE, any number of substores, any crash point: if rootmulti.Commit is cut short anywhere (any
   number of write units of any substore reached the disk; the root's own flush, the last unit, did not), reopening
   gives every substore at the OLD version with its OLD content - exactly the store as it was before the commit *)
Theorem C13_multistore_crash_safe ms ci olds budget ms' : 1 <= keep_recent (ms_prune ms) -> consistent ms ci olds ->
  commit ms budget = Some (ms', true) ->
  exists ms2, reopen ms' = Some ms2 /\ ms_latest ms2 = ms_latest ms /\ fst (ms_last ms2) = ms_latest ms /\
    Forall2 (fun l no => fst l = fst (fst no) /\ t_work (snd l) = snd no /\ t_ver (snd l) = t_ver (snd (fst no)))
            (ms_trees ms2) (combine (ms_trees ms) olds).
Proof. exact (multistore_crash_safe ms ci olds budget ms'). Qed.
Example C13_ex_premises : consistent ex_ms1 [([1]%N, (1, [([10]%N, [11]%N)])); ([2]%N, (1, [([20]%N, [21]%N)]))]
                                     [[([10]%N, [11]%N)]; [([20]%N, [21]%N)]].
Proof. exact ex_ms1_consistent. Qed.
(* the full statement is FALSE of the code as it is: with keepRecent = 0 (PruneEverything, the
   zero-value default) the version the root still points at is deleted before the flush (finding F8) *)
Theorem C13_refuted_for_keep_recent_0 :
  exists p t old tf units, keep_recent p = 0 /\ tree_ok t old /\ store_commit p t = Some (tf, units) /\
    exists u, In u units /\ load_version (t_disk u) (t_ver t) = None.
Proof. exact store_commit_crash_unsafe_when_keep_recent_0. Qed.
(* replay after a crash: SaveVersion onto a version already on disk with the same content is idempotent *)
Theorem C13_replay_idempotent t c : vget (t_disk t) (t_ver t + 1) = Some c -> kv_eqb c (t_work t) = true ->
  save_version t = Some {| t_disk := t_disk t; t_work := t_work t; t_ver := t_ver t + 1 |}.
Proof. intros E K. unfold save_version. rewrite E, K. reflexivity. Qed.
(* the whole multistore, every crash point of a two-substore commit under keepRecent = 1: crash budgets 0 to 6, where a budget the
   commit does not use up gives the completed commit (version 3) *)
Example C13_ex_all_crash_points :
  let ms0 := ms_init [[97]%N; [98]%N] {| keep_recent := 1; keep_every := 0 |} in
  match commit_in_order (ms_set ms0 [97]%N [1]%N [10]%N) [] None with
  | Some (ms1, false) =>
    match commit_in_order (ms_set ms1 [98]%N [2]%N [20]%N) [] None with
    | Some (ms2, false) =>
      let blk := ms_set (ms_set ms2 [97]%N [1]%N [11]%N) [98]%N [3]%N [30]%N in
      forallb (fun k => match commit_in_order blk [] (Some k) with
                        | Some (m, true) => match reopen m with
                                            | Some r => (fst (ms_last r) =? 2) && kv_eqb (match ms_trees r with (_, t) :: _ => t_work t | [] => [] end) [([1]%N, [10]%N)]
                                            | None => false end
                        | Some (m, false) => (fst (ms_last m) =? 3)
                        | None => false end) [0;1;2;3;4;5;6]%nat = true
    | _ => False end
  | _ => False end.
Proof. vm_compute. reflexivity. Qed.
Print Assumptions C13_substore_crash_safe.
Print Assumptions C13_multistore_crash_safe.
Print Assumptions C13_refuted_for_keep_recent_0.
