(* C17 — Governance: only the listed owner changes a parameter or moves DAO funds.
   Statements, each closed by a lemma of the proof files or a few lines on top of one. *)
From Coq Require Import List ZArith.
From PM Require Import Base.Bytes Store.KV Store.MergeProofs App.Model App.TxProofs App.GovProofs App.PoolProofs
  App.DaoProofs App.Examples App.Invariants App.KeyTypes App.KeyTypesMore.
Import ListNotations.
Local Open Scope Z_scope.

Theorem C17_params_change_needs_owner s m s' : handle s m = HOk s' -> gov_view s' <> gov_view s ->
  (exists f key v raw wf, m = MChangeParam f key v raw wf /\ beqb (owner_of (acl s) key) f = true) \/
  (exists f h raw, m = MUpgrade f h raw /\ beqb (owner_of (acl s) [103;111;118;47;117;112;103;114;97;100;101]%N) f = true).
Proof. exact (params_change_needs_owner s m s'). Qed.
Theorem C17_change_alters_that_parameter_alone s f key v raw s' : dsorted true (params_raw s) ->
  handle s (MChangeParam f key v raw true) = HOk s' ->
  forall k, k <> key -> aget (params_raw s') k = aget (params_raw s) k.
Proof. intros _. exact (param_change_alters_one s f key v raw s'). Qed.
Theorem C17_dao_needs_owner s f t amt act s' : handle s (MDao f t amt act) = HOk s' ->
  beqb (dao_owner s) f = true /\
  ((act = 1%N /\ bank_send s (m_dao (ma s)) t amt = Some s') \/ (act = 2%N /\ bank_burn s (m_dao (ma s)) amt = Some s')) /\
  0 <= amt <= bal s (m_dao (ma s)).
Proof. exact (dao_needs_owner s f t amt act s'). Qed.
(* over the whole block cycle: NO operation (BeginBlock with votes / evidence / rewards / burns, EndBlock, awards,
   burns, commits, any other transaction) changes any parameter, the ACL, the DAO owner or the upgrade plan -
   only a delivered change-parameter / upgrade transaction whose sender is the ACL owner of that key *)
Theorem C17_only_the_owners_tx_changes_parameters s o s' : step s o = Some s' -> gov_view s' <> gov_view s ->
  exists t s1, o = OTx t /\ ante s t = Some s1 /\ acl s1 = acl s /\
    ((exists f key v raw wf, t_msg t = MChangeParam f key v raw wf /\ beqb (owner_of (acl s) key) f = true /\ msg_signer (t_msg t) = f) \/
     (exists f h raw, t_msg t = MUpgrade f h raw /\ beqb (owner_of (acl s) [103;111;118;47;117;112;103;114;97;100;101]%N) f = true)).
Proof. exact (params_change_only_by_owner_tx s o s'). Qed.
(* ... and the same when the consensus parameters admit ed25519 validator keys only (step_cp, App/KeyTypes.v) *)
Theorem C17_only_the_owners_tx_changes_parameters_under_key_restriction r s o s' : step_cp r s o = Some s' -> gov_view s' <> gov_view s ->
  exists t s1, o = OTx t /\ ante s t = Some s1 /\ acl s1 = acl s /\
    ((exists f key v raw wf, t_msg t = MChangeParam f key v raw wf /\ beqb (owner_of (acl s) key) f = true /\ msg_signer (t_msg t) = f) \/
     (exists f h raw, t_msg t = MUpgrade f h raw /\ beqb (owner_of (acl s) [103;111;118;47;117;112;103;114;97;100;101]%N) f = true)).
Proof. exact (params_change_only_by_owner_tx_cp r s o s'). Qed.
(* an ACL that lists a parameter more than once: the FIRST entry names its owner, entries for the same key further down
   change nothing whatever address they carry (ACL.GetOwner's loop; ModifyParam installs any list unchecked) *)
Theorem C17_first_acl_entry_owns l1 k a l2 :
  (forall p, In p l1 -> fst p <> k) -> owner_of (l1 ++ (k, a) :: l2) k = a.
Proof. exact (owner_of_first_entry l1 k a l2). Qed.
Theorem C17_later_acl_entries_for_a_key_are_ignored l1 k a l2 l2' :
  (forall p, In p l1 -> fst p <> k) -> owner_of (l1 ++ (k, a) :: l2) k = owner_of (l1 ++ (k, a) :: l2') k.
Proof. exact (owner_of_ignores_later_entries l1 k a l2 l2'). Qed.

Theorem C17_begin_block_changes_no_parameter s h t prop votes evs s' : begin_block s h t prop votes evs = Some s' -> gov_view s' = gov_view s.
Proof. exact (gv_begin_block s h t prop votes evs s'). Qed.
Theorem C17_end_block_changes_no_parameter s s' ups : end_block s = Some (s', ups) -> gov_view s' = gov_view s.
Proof. exact (gv_end_block s s' ups). Qed.
(* DAO funds, over the whole block cycle: in every step of every history (module accounts at distinct addresses, no
   transaction signed by the pool's or the DAO's address) the DAO balance does not go down - except in a delivered DAO
   message whose sender is the DAO owner, and then by at most the stated amount (App/DaoProofs.v) *)
Theorem C17_dao_balance_falls_only_by_the_owners_message MA s o s' : m_fee MA <> m_dao MA -> m_pos MA <> m_dao MA ->
  pool_ok MA s -> op_okd MA o -> step s o = Some s' ->
  pool_ok MA s' /\
  (bal s (m_dao MA) <= bal s' (m_dao MA) \/
   exists t f to amt act, o = OTx t /\ t_msg t = MDao f to amt act /\ beqb (dao_owner s) f = true /\ 0 <= amt /\
                          bal s (m_dao MA) - amt <= bal s' (m_dao MA)).
Proof. intros Df Dp. exact (step_dao MA Df Dp s o s'). Qed.
Example C17_ex_dao_premises : m_fee ex_ma <> m_dao ex_ma /\ m_pos ex_ma <> m_dao ex_ma /\ Forall (op_okd ex_ma) ex_ops /\
  (exists s ups, ex_genesis = Some (s, ups) /\ pool_ok ex_ma s).
Proof.
  split; [discriminate|]. split; [discriminate|]. split; [repeat constructor; cbn; discriminate|].
  destruct ex_genesis_all_ok as (s & ups & E & _ & _ & P & _). exists s, ups. auto.
Qed.
Example C17_ex : match ex_genesis with
  | Some (s, _) => handle s (MDao A2 A3 5 1) = HErr s /\ (exists s', handle s (MDao A1 A3 5 1) = HOk s' /\ bal s' DAO = 495)
  | None => False end.
Proof. vm_compute. split; [reflexivity|eexists; split; reflexivity]. Qed.
Print Assumptions C17_params_change_needs_owner.
Print Assumptions C17_dao_needs_owner.
Print Assumptions C17_only_the_owners_tx_changes_parameters.
Print Assumptions C17_only_the_owners_tx_changes_parameters_under_key_restriction.
Print Assumptions C17_dao_balance_falls_only_by_the_owners_message.
Print Assumptions C17_first_acl_entry_owns.
Print Assumptions C17_later_acl_entries_for_a_key_are_ignored.
