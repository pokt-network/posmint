(* C19 — Signatures bind key and message; stored keys survive export/import.
   Statements, each closed by a lemma of the proof files or a few lines on top of one.
   Over IDEAL primitives (a signature records who signed what; an armor opens under its own
   passphrase only): unforgeability of ed25519/secp256k1 and authenticity of scrypt+AES-GCM are
   hypotheses of the model, exercised (not proved) on the real primitives by the `keys` engine. *)
From Coq Require Import List NArith.
From PM Require Import Store.KV Crypto.KeysModel Crypto.KeysProofs.
Import ListNotations.
Local Open Scope N_scope.

Theorem C19_plain_signature_binds_key_and_message id m b o : verify (PK id) m (SPlain b o) = true <-> b = id /\ o = m.
Proof. exact (verify_plain_iff id m b o). Qed.
Theorem C19_multisig_positional ks m sigs :
  verify (PMulti ks) m (SMulti sigs) = true <-> Forall2 (fun k s => verify k m s = true) ks sigs.
Proof. exact (verify_multi_iff ks m sigs). Qed.
Theorem C19_multisig_needs_every_key ks m sigs : verify (PMulti ks) m (SMulti sigs) = true -> length sigs = length ks.
Proof. exact (verify_multi_length ks m sigs). Qed.
Theorem C19_wrong_passphrase_changes_nothing (s : kb) ad (a : armor) p : aget s ad = Some a -> p <> snd a ->
  (forall np, kstep s (KUpdate ad p np) = (s, KErr)) /\ kstep s (KDelete ad p) = (s, KErr) /\
  (forall m, kstep s (KSign ad p m) = (s, KErr)) /\ (forall ep, kstep s (KExport ad p ep) = (s, KErr)).
Proof. exact (wrong_pass_changes_nothing s ad a p). Qed.
Theorem C19_import_wrong_passphrase (s : kb) (a : armor) dp np : dp <> snd a -> kstep s (KImport a dp np) = (s, KErr).
Proof. exact (import_wrong_pass_changes_nothing s a dp np). Qed.
Theorem C19_export_import_roundtrip (s1 s2 : kb) ad dp ep np (a : armor) :
  kstep s1 (KExport ad dp ep) = (s1, KArmor a) -> aget s2 (addr_of (fst a)) = None ->
  kstep s2 (KImport a ep np) = (aset s2 (addr_of (fst a)) (fst a, np), KOk) /\
  (exists a0, aget s1 ad = Some a0 /\ fst a0 = fst a).
Proof. exact (export_import_roundtrip s1 s2 ad dp ep np a). Qed.
Example C19_ex :
  verify (PMulti [PK 1; PMulti [PK 2; PK 3]]) 9 (SMulti [SPlain 1 9; SMulti [SPlain 2 9; SPlain 3 9]]) = true /\
  verify (PMulti [PK 1; PMulti [PK 2; PK 3]]) 9 (SMulti [SMulti [SPlain 2 9; SPlain 3 9]; SPlain 1 9]) = false /\
  verify (PMulti [PK 1; PK 2]) 9 (SMulti [SPlain 1 9]) = false /\
  verify (PMulti [PK 1; PK 2]) 9 (SMulti [SPlain 1 9; SPlain 2 8]) = false.
Proof. repeat split; reflexivity. Qed.
Print Assumptions C19_multisig_positional.
Print Assumptions C19_wrong_passphrase_changes_nothing.
Print Assumptions C19_export_import_roundtrip.
