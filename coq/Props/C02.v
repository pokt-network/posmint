(* C02 — Token conservation: supply equals balances; only mint/burn move it.
   Statements, each closed by a lemma of the proof files or a few lines on top of one. *)
From Coq Require Import List ZArith.
From PM Require Import Store.KV App.Model App.BankProofs App.KeyTypes App.Examples.
Import ListNotations.
Local Open Scope Z_scope.

(* the invariant: accounts form a map, their sum is the recorded supply, no balance is negative *)
Theorem C02_genesis s0 gv dao s ups : bank_ok s0 -> init_chain s0 gv dao = Some (s, ups) -> bank_ok s.
Proof. exact (init_chain_pres s0 gv dao s ups). Qed.
(* ... in every state reachable by any history of blocks, transactions, votes, evidence, awards, burns *)
Theorem C02_all_histories ops s s' : bank_ok s -> run ops s = Some s' -> bank_ok s'.
Proof. exact (run_pres ops s s'). Qed.
Theorem C02_step s o s' : bank_ok s -> step s o = Some s' -> bank_ok s'.
Proof. exact (step_pres s o s'). Qed.
(* the supply moves only through the mint and burn primitives, by exactly their amount; a send never moves it *)
Theorem C02_send_moves_nothing s from to amt s' : bank_ok s -> bank_send s from to amt = Some s' ->
  bank_ok s' /\ supply s' = supply s.
Proof. exact (bank_send_ok s from to amt s'). Qed.
Theorem C02_mint_exact s m amt s' : bank_ok s -> bank_mint s m amt = Some s' ->
  bank_ok s' /\ supply s' = supply s + amt /\ 0 <= amt.
Proof. exact (bank_mint_ok s m amt s'). Qed.
Theorem C02_burn_exact s m amt s' : bank_ok s -> bank_burn s m amt = Some s' ->
  bank_ok s' /\ supply s' = supply s - amt /\ 0 <= amt.
Proof. exact (bank_burn_ok s m amt s'). Qed.
Example C02_ex_genesis_consistent : bank_ok ex_s0.
Proof. exact ex_s0_bank_ok. Qed.
Example C02_ex_history : exists s, ex_final = Some s /\ supply s = 10000547 /\
  aget (accts s) A2 = Some 3000000 /\ aget (vals s) A2 = None /\ aget (accts s) A3 = Some 47.
Proof. exact ex_final_some. Qed.
(* ... and in every history run under consensus parameters that admit ed25519 validator keys only (run_cp true: deliver_tx_cp
   in the place of deliver_tx), which without the restriction is the ordinary history *)
Theorem C02_all_histories_under_key_restriction r ops s s' : bank_ok s -> run_cp r ops s = Some s' -> bank_ok s'.
Proof. exact (run_cp_bank_ok r ops s s'). Qed.
Theorem C02_unrestricted_history_is_the_ordinary_one ops s : run_cp false ops s = run ops s.
Proof. exact (run_cp_unrestricted ops s). Qed.
Print Assumptions C02_all_histories.
Print Assumptions C02_all_histories_under_key_restriction.
Print Assumptions C02_genesis.
Print Assumptions C02_mint_exact.
