(* C06 — Validator lifecycle: legal transitions only, and unstaking pays out on time.
   Statements, each closed by a lemma of the proof files or a few lines on top of one.
   The order and injectivity of the power-index keys, that a jailed / not-staked validator
   is never indexed, that jailing removes the entry, and that only queue slots due at the block
   time are processed (never earlier), AND over all histories: the power index is sound in every reachable
   state (App/IndexProofs.v), every unstaking validator is queued under its completion time in every
   reachable state, and EndBlock leaves no unstaking validator whose completion time has been reached
   and the queue is sound (every queued address is an unstaking validator with that completion time), so
   EndBlock never releases anybody early (App/QueueProofs.v); the index is also COMPLETE (every staked unjailed
   validator is indexed under the key of its current stake) for well-formed addresses (App/IndexComplete.v).
   The labelled transition relation itself (App/TransitionProofs.v): in every step of every history the status of an address
   is unchanged, or changes by exactly one of: its own delivered stake (unknown/unstaked -> staked, amount >= the minimum),
   its own delivered begin-unstake (staked -> unstaking), release at an EndBlock (unstaking -> removed), a forced unstake
   in a BeginBlock (any -> unstaked). *)
From Coq Require Import List ZArith.
From PM Require Import Base.Bytes Store.KV Store.MergeProofs App.Model App.BankProofs App.KeyProofs App.PosProofs
  App.IndexProofs App.IndexComplete App.QueueProofs App.ExportProofs App.TransitionProofs App.KeyTypes App.Examples
  App.Invariants.
Import ListNotations.
Local Open Scope Z_scope.

Theorem C06_index_only_staked_unjailed_partial s a v : v_jailed v = true \/ v_status v <> 2%N -> set_staked s a v = s.
Proof. exact (set_staked_skips_jailed s a v). Qed.
Theorem C06_jail_removes_index_entry s a s' v : dsorted true (vals s) -> dsorted true (powidx s) ->
  get_val s a = Some v -> jail s a = Some s' ->
  aget (powidx s') (rank_key (v_tokens v) a) = None /\ exists v', get_val s' a = Some v' /\ v_jailed v' = true.
Proof. intros _. exact (jail_removes_from_index s a s' v). Qed.
Theorem C06_index_key_matches_stake t1 a1 t2 a2 :
  0 <= power_of t1 < 2 ^ 64 -> 0 <= power_of t2 < 2 ^ 64 -> wf_bytes a1 -> wf_bytes a2 -> length a1 = length a2 ->
  rank_key t1 a1 = rank_key t2 a2 -> power_of t1 = power_of t2 /\ a1 = a2.
Proof. exact (rank_key_injective t1 a1 t2 a2). Qed.
Theorem C06_maturity_never_early s k l : 0 <= btime s < 256 ^ 8 ->
  In (k, l) (filter (fun p => bleb (fst p) (time_key (btime s))) (unstq s)) ->
  forall t, 0 <= t < 256 ^ 8 -> k = time_key t -> t <= btime s.
Proof. exact (mature_slots_are_due s k l). Qed.
Theorem C06_payout_is_whole_stake s a v s' : bank_ok s -> finish_unstaking s a v = Some s' -> bank_ok s'.
Proof. exact (finish_unstaking_pres s a v s'). Qed.
(* legal transitions only: every step of every history, every address *)
Theorem C06_only_legal_transitions s o s' b : dsorted true (vals s) -> step s o = Some s' ->
  dsorted true (vals s') /\ (st s' b = st s b \/ legal_change s o b (st s b) (st s' b)).
Proof. exact (step_transitions s o s' b). Qed.
Theorem C06_legal_change_reading s o b before after : legal_change s o b before after ->
  match o with
  | OBegin _ _ _ _ _ => (exists k, before = Some k) /\ after = Some 0%N
  | OTx t => msg_signer (t_msg t) = b /\
             ((exists pk amt, t_msg t = MStake pk b amt /\ (before = None \/ before = Some 0%N) /\ after = Some 2%N /\ p_min_stake (pp s) <= amt) \/
              (t_msg t = MUnstake b /\ before = Some 2%N /\ after = Some 1%N))
  | OEnd => before = Some 1%N /\ after = None
  | _ => False
  end.
Proof.
  destruct o as [h t p vs es|t|a amt|a sev| |]; cbn [legal_change]; auto.
  intros [Sg Ch]. split; auto. destruct (t_msg t); cbn [msg_change] in Ch; try contradiction.
  - destruct Ch as (-> & B & A & M). left. exists pk, amt. auto.
  - destruct Ch as (-> & B & A). right. auto.
Qed.
Theorem C06_index_sound_all_histories ops s s' : idx_sound s -> run ops s = Some s' -> idx_sound s'.
Proof. exact (run_is ops s s'). Qed.
Theorem C06_not_staked_never_indexed_all_histories ops s s' a v : idx_sound s -> run ops s = Some s' ->
  get_val s' a = Some v -> v_status v <> 2%N -> forall k, aget (powidx s') k <> Some a.
Proof. intros H E. exact (not_staked_never_indexed s' a v (run_is ops s s' H E)). Qed.
Theorem C06_unstaking_always_queued_all_histories ops s s' b v : queue_ok s -> run ops s = Some s' ->
  get_val s' b = Some v -> v_status v = 1%N ->
  exists l, aget (unstq s') (time_key (v_unstime v)) = Some l /\ In b l.
Proof.
  intros H E Eb St. destruct (run_q ops s s' H E) as (_ & _ & Hq). apply (Hq b v); auto. discriminate.
Qed.
(* released at the first block at or after the completion time: after EndBlock nobody whose time has come is left *)
Theorem C06_released_on_time s s' ups b v : queue_ok s -> end_block s = Some (s', ups) ->
  0 <= btime s < 256 ^ 8 -> get_val s' b = Some v -> v_status v = 1%N -> 0 <= v_unstime v < 256 ^ 8 ->
  btime s < v_unstime v.
Proof. exact (released_on_time s s' ups b v). Qed.
(* the power index lists EXACTLY the staked, unjailed validators under the key of their current stake, in every
   reachable state of every history whose staking addresses are well-formed byte strings *)
Theorem C06_index_exact_all_histories ops s s' : idx_exact s -> Forall op_wf ops -> run ops s = Some s' -> idx_exact s'.
Proof. exact (run_exact ops s s'). Qed.
Theorem C06_index_exact_reading s a v : idx_exact s -> get_val s a = Some v ->
  (aget (powidx s) (rank_key (v_tokens v) a) = Some a <-> (v_status v = 2%N /\ v_jailed v = false)).
Proof. exact (index_exact_reading s a v). Qed.
Theorem C06_genesis_index_exact s0 gvals dao s ups : idx_exact s0 -> NoDup (map g_addr gvals) ->
  (forall g, In g gvals -> aget (vals s0) (g_addr g) = None) -> (forall g, In g gvals -> wf_bytes (g_addr g)) ->
  init_chain s0 gvals dao = Some (s, ups) -> idx_exact s.
Proof. exact (init_chain_exact s0 gvals dao s ups). Qed.
Example C06_ex_exact_premises : (exists s ups, ex_genesis = Some (s, ups) /\ idx_exact s /\ queue_sound s) /\ Forall op_wf ex_ops.
Proof. split; [exact ex_genesis_idx_exact|exact ex_ops_wf]. Qed.
(* the other direction: every queued address is an unstaking validator whose completion time is the slot's,
   in every reachable state; hence EndBlock never touches an unstaking validator whose time is still ahead *)
Theorem C06_queue_sound_all_histories ops s s' : queue_sound s -> run ops s = Some s' -> queue_sound s'.
Proof. exact (run_qs ops s s'). Qed.
Theorem C06_never_released_early s s' ups b v : queue_sound s -> end_block s = Some (s', ups) ->
  0 <= btime s < 256 ^ 8 -> get_val s b = Some v -> v_status v = 1%N -> 0 <= v_unstime v < 256 ^ 8 ->
  btime s < v_unstime v -> get_val s' b = Some v.
Proof. exact (not_released_early s s' ups b v). Qed.
Theorem C06_genesis_queue_sound s0 gvals dao s ups : queue_sound s0 -> NoDup (map g_addr gvals) ->
  (forall g, In g gvals -> aget (vals s0) (g_addr g) = None) -> init_chain s0 gvals dao = Some (s, ups) -> queue_sound s.
Proof. exact (init_chain_qs s0 gvals dao s ups). Qed.
Theorem C06_genesis_queue_ok s0 gvals dao s ups : queue_ok s0 -> init_chain s0 gvals dao = Some (s, ups) -> queue_ok s.
Proof. exact (init_chain_q s0 gvals dao s ups). Qed.
(* a restart from the exported state (ExportGenesis -> InitGenesis rebuilds index and queue from the records): in
   every state satisfying the history-level invariants the rebuilt index IS the index, the rebuilt queue has the same
   members and the live records are the same; and whatever list of distinct live records InitGenesis is given, the
   state it builds satisfies the invariants (App/ExportProofs.v; the engine's export/import stream checks the same
   projections on the real code) *)
Theorem C06_restart_from_export_is_identity s : idx_sound s -> idx_complete s -> queue_ok s -> queue_sound s ->
  let '(V', P', Q') := import (export (vals s)) in
  V' = export (vals s) /\ same_live (vals s) V' /\ P' = powidx s /\ (forall k a, queued Q' k a <-> queued (unstq s) k a).
Proof. exact (export_import_roundtrip s). Qed.
Theorem C06_import_establishes_invariants l : NoDup (map fst l) -> (forall a v, In (a, v) l -> wf_bytes a) ->
  let '(V', P', Q') := import l in
  isound V' P' /\ icomp V' P' /\ qc V' Q' /\ qs V' Q' /\
  forall a, aget V' a = match find (fun av => beqb (fst av) a) l with Some av => Some (snd av) | None => None end.
Proof. exact (import_establishes_the_invariants l). Qed.
Theorem C06_import_is_the_three_store_writes s av :
  let s' := import_validator s av in (vals s', powidx s', unstq s') = imp_one (vals s, powidx s, unstq s) av.
Proof. exact (import_validator_is_imp_one s av). Qed.
Example C06_ex_restart : match ex_final with
  | Some s => import (export (vals s)) = (export (vals s), powidx s, unstq s) | None => False end.
Proof. vm_compute. reflexivity. Qed.
Example C06_ex_premises : exists s ups, ex_genesis = Some (s, ups) /\ bank_ok s /\ idx_sound s /\ PoolProofs.pool_ok ex_ma s /\ queue_ok s.
Proof. exact ex_genesis_all_ok. Qed.
Example C06_ex : exists s, ex_final = Some s /\ aget (accts s) A2 = Some 3000000 /\ aget (vals s) A2 = None.
Proof. destruct ex_final_some as (s & E & _ & B & V & _). eauto. Qed.
(* the same history-level invariants when the consensus parameters admit ed25519 validator keys only *)
Theorem C06_index_sound_under_key_restriction r ops s s' : idx_sound s -> run_cp r ops s = Some s' -> idx_sound s'.
Proof. exact (run_cp_idx_sound r ops s s'). Qed.
Theorem C06_unstaking_queued_under_key_restriction r ops s s' : queue_ok s -> run_cp r ops s = Some s' -> queue_ok s'.
Proof. exact (run_cp_queue_ok r ops s s'). Qed.
Theorem C06_queue_sound_under_key_restriction r ops s s' : queue_sound s -> run_cp r ops s = Some s' -> queue_sound s'.
Proof. exact (run_cp_queue_sound r ops s s'). Qed.
Print Assumptions C06_jail_removes_index_entry.
Print Assumptions C06_index_sound_under_key_restriction.
Print Assumptions C06_restart_from_export_is_identity.
Print Assumptions C06_only_legal_transitions.
Print Assumptions C06_import_establishes_invariants.
Print Assumptions C06_maturity_never_early.
Print Assumptions C06_index_sound_all_histories.
Print Assumptions C06_unstaking_always_queued_all_histories.
Print Assumptions C06_released_on_time.
Print Assumptions C06_queue_sound_all_histories.
Print Assumptions C06_never_released_early.
Print Assumptions C06_index_exact_all_histories.
