(* C09 — Jailed validators have no power; unjail and tombstone rules hold.
   Statements, each closed by a lemma of the proof files or a few lines on top of one. *)
From Coq Require Import List ZArith.
From PM Require Import Store.KV Store.MergeProofs App.Model App.PosProofs App.IndexProofs App.TombProofs
  App.UpdateProofs App.KeyTypes App.KeyTypesMore App.Examples.
Import ListNotations.
Local Open Scope Z_scope.

Theorem C09_unjail_preconditions s a s' : handle s (MUnjail a) = HOk s' ->
  exists v si, get_val s a = Some v /\ v_jailed v = true /\ p_min_stake (pp s) <= v_tokens v /\
    aget (sinfo s) a = Some si /\ si_tomb si = false /\ si_jailed_until si <= btime s /\ unjail s a = Some s'.
Proof. exact (unjail_preconditions s a s'). Qed.
Theorem C09_unjail_effect s a s' v : dsorted true (vals s) -> dsorted true (powidx s) -> get_val s a = Some v -> unjail s a = Some s' ->
  exists v', get_val s' a = Some v' /\ v_jailed v' = false /\ v_tokens v' = v_tokens v /\ v_status v' = v_status v /\
    (v_status v = 2%N -> aget (powidx s') (rank_key (v_tokens v) a) = Some a).
Proof. intros _ _. exact (unjail_effect s a s' v). Qed.
Theorem C09_jailed_leaves_index s a s' v : dsorted true (vals s) -> dsorted true (powidx s) ->
  get_val s a = Some v -> jail s a = Some s' ->
  aget (powidx s') (rank_key (v_tokens v) a) = None /\ exists v', get_val s' a = Some v' /\ v_jailed v' = true.
Proof. intros _. exact (jail_removes_from_index s a s' v). Qed.
Theorem C09_jailed_never_indexed s a v : v_jailed v = true \/ v_status v <> 2%N -> set_staked s a v = s.
Proof. exact (set_staked_skips_jailed s a v). Qed.
Theorem C09_double_sign_tombstones s a h t p s' : handle_double_sign s a h t p = Some s' ->
  exists si, aget (sinfo s') a = Some si /\ si_tomb si = true /\ si_jailed_until si = double_sign_jail_end.
Proof. exact (double_sign_tombstones s a h t p s'). Qed.
Theorem C09_tombstoned_never_unjails s a si : aget (sinfo s) a = Some si -> si_tomb si = true ->
  forall s', handle s (MUnjail a) <> HOk s'.
Proof. exact (tombstoned_never_unjails s a si). Qed.
(* a jailed validator has no entry in the power index, in every reachable state *)
Theorem C09_jailed_never_in_index_all_histories ops s s' a v : idx_sound s -> run ops s = Some s' ->
  get_val s' a = Some v -> v_jailed v = true -> forall k, aget (powidx s') k <> Some a.
Proof. intros H E. exact (jailed_never_indexed s' a v (run_is ops s s' H E)). Qed.
(* tombstoned and jailed permanently (finding F24 repaired: a tombstoned address never stakes again) *)
Theorem C09_tombstoned_forever ops s s' a : tomb_ok s -> tombed (sinfo s) a -> run ops s = Some s' ->
  tombed (sinfo s') a /\ forall v, get_val s' a = Some v -> v_jailed v = true.
Proof. exact (tombstoned_forever ops s s' a). Qed.
Theorem C09_tombstoned_never_regains_power ops s s' a : tomb_ok s -> idx_sound s -> tombed (sinfo s) a ->
  run ops s = Some s' -> forall k, aget (powidx s') k <> Some a.
Proof. exact (tombstoned_never_indexed ops s s' a). Qed.
(* the same over every history run under consensus parameters that admit ed25519 validator keys only *)
Theorem C09_tombstoned_forever_under_key_restriction r ops s s' a : tomb_ok s -> tombed (sinfo s) a -> run_cp r ops s = Some s' ->
  tombed (sinfo s') a /\ forall v, get_val s' a = Some v -> v_jailed v = true.
Proof. exact (tombstoned_forever_cp r ops s s' a). Qed.
Theorem C09_tombstoned_never_regains_power_under_key_restriction r ops s s' a : tomb_ok s -> idx_sound s -> tombed (sinfo s) a ->
  run_cp r ops s = Some s' -> forall k, aget (powidx s') k <> Some a.
Proof. exact (tombstoned_never_indexed_cp r ops s s' a). Qed.
Theorem C09_genesis_tomb_ok s0 gvals dao s ups : tomb_ok s0 -> (forall a, ~ tombed (sinfo s0) a) ->
  init_chain s0 gvals dao = Some (s, ups) -> tomb_ok s.
Proof. exact (init_chain_tomb s0 gvals dao s ups). Qed.
(* "From the validator-set update following its jailing ... absent from Tendermint's set": after ANY update of the set
   (EndBlock of any reachable state) a validator that is jailed or not staked is not in the set the module reports to
   Tendermint, and every member is a staked, unjailed validator with exactly the power of its stake *)
Theorem C09_jailed_absent_from_the_reported_set s s' ups a v : idx_sound s -> dsorted true (prevpow s) ->
  update_tm_validators s = Some (s', ups) -> get_val s a = Some v -> (v_jailed v = true \/ v_status v <> 2%N) ->
  aget (prevpow s') a = None.
Proof. exact (jailed_absent_from_tm_set s s' ups a v). Qed.
Theorem C09_members_have_the_power_of_their_stake s s' ups a p : idx_sound s -> dsorted true (prevpow s) ->
  update_tm_validators s = Some (s', ups) -> aget (prevpow s') a = Some p ->
  exists v, get_val s a = Some v /\ v_status v = 2%N /\ v_jailed v = false /\ p = power_of (v_tokens v).
Proof. exact (member_has_the_power_of_its_stake s s' ups a p). Qed.
Example C09_ex : match ex_genesis with
  | Some (s, _) => match handle_double_sign (set_block s 5 50) A1 4 40 2 with
                   | Some s' => option_map v_jailed (get_val s' A1) = Some true /\ powidx s' = [] /\
                                (forall s'', handle s' (MUnjail A1) <> HOk s'')
                   | None => False end
  | None => False end.
Proof. vm_compute. repeat split; try reflexivity. intros s'' H; discriminate H. Qed.
Print Assumptions C09_unjail_preconditions.
Print Assumptions C09_double_sign_tombstones.
Print Assumptions C09_tombstoned_forever.
Print Assumptions C09_tombstoned_never_regains_power_under_key_restriction.
Print Assumptions C09_tombstoned_never_regains_power.
Print Assumptions C09_jailed_never_in_index_all_histories.
Print Assumptions C09_jailed_absent_from_the_reported_set.
